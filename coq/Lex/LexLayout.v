(* Layout independence at the token level (the lexical half of C12), and CRLF. *)
From Verif Require Import Base.Bytestr gen.Tables Lex.LexModel Lex.LexSpec Lex.LexProofs Front.Squeeze.
Open Scope N_scope.

(* the significant tokens of an item list: types and values, no positions *)
Fixpoint sig (items : list item) : list ptoken :=
  match items with
  | [] => []
  | it :: r => match item_tok it with Some tv => tv :: sig r | None => sig r end
  end.

Lemma strip_expected items rc : map strip_tok (expected items rc) = sig items.
Proof.
  revert rc; induction items as [|it items IH]; intro rc; [reflexivity|].
  cbn [expected sig]. destruct (item_tok it) as [[t v]|]; [cbn [map strip_tok ty val]; f_equal; apply IH|apply IH].
Qed.

Lemma parser_input_items items :
  items_ok items [] = true -> replace_crlf (render items) = render items ->
  parser_input (tokenize (render items)) = Some (squeeze (sig items ++ [(EOF, [])])).
Proof.
  intros Hok Hcr. rewrite tokenize_items by assumption.
  cbn [parser_input]. rewrite map_app, strip_expected. reflexivity.
Qed.

Definition is_layout (it : item) : bool :=
  match it with
  | IPunct _ t => dropped t
  | ILine _ | IBlock _ => true
  | _ => false
  end.

Lemma compact_cons2 x y r :
  compact (x :: y :: r) = if is_nl x && is_nl y then compact (y :: r) else x :: compact (y :: r).
Proof. reflexivity. Qed.

Lemma compact_nl_nl a x y b : is_nl x = true -> is_nl y = true ->
  compact (a ++ x :: y :: b) = compact (a ++ y :: b).
Proof.
  intros Hx Hy. induction a as [|z a IH]; cbn [app] in *.
  - rewrite compact_cons2, Hx, Hy. reflexivity.
  - (* what follows z is the head of a, or else x on the left and y on the right: line breaks both *)
    destruct a as [|w a']; cbn [app] in *; rewrite !(compact_cons2 z), IH; [rewrite Hx, Hy|]; reflexivity.
Qed.

Theorem blank_line_irrelevant a x y b : is_nl x = true -> is_nl y = true ->
  squeeze (a ++ x :: y :: b) = squeeze (a ++ y :: b).
Proof. intros Hx Hy. unfold squeeze. rewrite compact_nl_nl by assumption. reflexivity. Qed.

Fixpoint to_crlf (s : bytes) : bytes :=
  match s with
  | [] => []
  | c :: r => if c =? 10 then 13 :: 10 :: to_crlf r else c :: to_crlf r
  end.

Definition no_cr (s : bytes) : bool := forallb (fun c => negb (c =? 13)) s.

Lemma replace_crlf_app a b : no_cr a = true -> replace_crlf (a ++ b) = a ++ replace_crlf b.
Proof.
  induction a as [|c a IH]; intro H; [reflexivity|]. cbn [no_cr forallb] in H. apply andb_true_iff in H as [Hc Ha].
  cbn [app replace_crlf]. apply negb_true_iff in Hc. rewrite Hc, (IH Ha). reflexivity.
Qed.

Lemma replace_crlf_id s : no_cr s = true -> replace_crlf s = s.
Proof. intro H. rewrite <- (app_nil_r s) at 1. rewrite (replace_crlf_app s [] H). apply app_nil_r. Qed.

Lemma replace_to_crlf s : no_cr s = true -> replace_crlf (to_crlf s) = s.
Proof.
  induction s as [|c r IH]; [reflexivity|]. cbn [no_cr forallb]. intro H.
  apply andb_true_iff in H as [Hc Hr]. apply negb_true_iff in Hc.
  cbn [to_crlf]. destruct (c =? 10) eqn:E.
  - apply N.eqb_eq in E. subst c. cbn [replace_crlf hd_is]. change (13 =? 13) with true. change (10 =? 10) with true.
    cbn [andb]. cbn [replace_crlf]. change (10 =? 13) with false. cbn [andb]. f_equal. apply IH. exact Hr.
  - cbn [replace_crlf]. rewrite Hc. cbn [andb]. f_equal. apply IH. exact Hr.
Qed.

Theorem crlf_irrelevant s : no_cr s = true -> tokenize (to_crlf s) = tokenize s.
Proof. intro H. unfold tokenize. rewrite replace_to_crlf, replace_crlf_id by exact H. reflexivity. Qed.
