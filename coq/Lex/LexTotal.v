(* Totality of the lexer model: every successful probe consumes at least one byte, so the
   fuel tokenize supplies (length + 1) is never exhausted. *)
From Verif Require Import Base.Bytestr Base.ListFacts gen.Tables Lex.LexModel Lex.LexProofs.
Open Scope N_scope.

Lemma span_snd_le p s : (length (snd (span p s)) <= length s)%nat.
Proof.
  induction s as [|c r IH]; [simpl; lia|]. simpl. destruct (p c); [|simpl; lia].
  destruct (span p r) as [a b]. simpl in *. lia.
Qed.

Lemma span_fst_nonempty_lt p s a b : span p s = (a, b) -> a <> [] -> (length b < length s)%nat.
Proof.
  intros H Ha. pose proof (span_app p s) as E. rewrite H in E. simpl in E. subst s.
  rewrite app_length. destruct a; [congruence|simpl; lia].
Qed.

Lemma scan_string_shorter_n raw n : forall s acc v rest,
  (length s <= n)%nat -> scan_string raw s acc = StrOk v rest -> (length rest < length s)%nat.
Proof.
  induction n as [|n IH]; intros s acc v rest Hn; destruct s as [|c r]; try discriminate; [simpl in Hn; lia|].
  simpl in Hn. cbn [scan_string]. destruct raw.
  - destruct (c =? 96).
    + intro E. inversion E; subst. simpl. lia.
    + intro E. apply IH in E; [simpl; lia|lia].
  - destruct (c =? 92).
    + destruct r as [|d r'].
      * intro E. apply IH in E; simpl in *; lia.
      * destruct (d =? 10).
        -- intro E. apply IH in E; simpl in *; lia.
        -- destruct (unescape1 d); [|discriminate]. intro E. apply IH in E; simpl in *; lia.
    + destruct (c =? 34).
      * intro E. inversion E; subst. simpl. lia.
      * intro E. apply IH in E; simpl in *; lia.
Qed.

Lemma scan_string_shorter raw s acc v rest :
  scan_string raw s acc = StrOk v rest -> (length rest < length s)%nat.
Proof. apply (scan_string_shorter_n raw (length s)). lia. Qed.

Lemma scan_block_comment_shorter s b rest :
  scan_block_comment s = Some (b, rest) -> (length rest < length s)%nat.
Proof.
  unfold scan_block_comment. destruct (strip_prefix [47; 42] s) as [r0|] eqn:Es; [|discriminate].
  apply strip_prefix_shorter in Es; [|discriminate]. destruct (find_close r0); [|discriminate].
  intro E. injection E as _ <-. rewrite skipn_length. lia.
Qed.

Lemma scan_line_comment_shorter s b rest :
  scan_line_comment s = Some (b, rest) -> (length rest < length s)%nat.
Proof.
  unfold scan_line_comment. destruct (strip_prefix [47; 47] s) as [r0|] eqn:Es; [|discriminate].
  apply strip_prefix_shorter in Es; [|discriminate]. intro E. injection E as E.
  pose proof (span_snd_le not_nl r0) as Hl. rewrite E in Hl. cbn [snd] in Hl. lia.
Qed.

Lemma scan_bool_shorter s v rest : scan_bool s = Some (v, rest) -> (length rest < length s)%nat.
Proof.
  unfold scan_bool. destruct (strip_prefix (bs "true") s) as [r1|] eqn:E1.
  - destruct (word_boundary r1); [|discriminate]. intro E. injection E as _ <-.
    apply strip_prefix_shorter in E1; [exact E1|discriminate].
  - destruct (strip_prefix (bs "false") s) as [r2|] eqn:E2; [|discriminate].
    destruct (word_boundary r2); [|discriminate]. intro E. injection E as _ <-.
    apply strip_prefix_shorter in E2; [exact E2|discriminate].
Qed.

Lemma scan_unsigned_shorter sign s v rest :
  scan_unsigned sign s = Some (v, rest) -> (length rest < length s)%nat.
Proof.
  unfold scan_unsigned. destruct (span is_digit s) as [ds s2] eqn:E1. destruct ds as [|d ds]; [discriminate|].
  assert (length s2 < length s)%nat as L1 by (eapply span_fst_nonempty_lt; [exact E1|discriminate]).
  destruct (hd_is 46 s2); [|intro E; injection E as _ <-; exact L1].
  destruct (span is_digit (tl s2)) as [fs s4] eqn:E2.
  pose proof (span_snd_le is_digit (tl s2)) as L2. rewrite E2 in L2. cbn [snd] in L2.
  assert (length (tl s2) <= length s2)%nat by (destruct s2; cbn [tl length]; lia).
  destruct fs; intro E; injection E as _ <-; lia.
Qed.

Lemma scan_number_shorter s v rest : scan_number s = Some (v, rest) -> (length rest < length s)%nat.
Proof.
  unfold scan_number. destruct (hd_is 45 s); intro E; apply scan_unsigned_shorter in E; [|exact E].
  destruct s; cbn [tl length] in *; lia.
Qed.

Lemma scan_ident_shorter s t v rest : scan_ident s = Some (t, v, rest) -> (length rest < length s)%nat.
Proof.
  destruct s as [|c r]; [discriminate|]. unfold scan_ident. destruct (is_alpha_ c) eqn:Ea; [|discriminate].
  destruct (span is_word (c :: r)) as [id r0] eqn:Es. intro E. injection E as _ _ <-.
  eapply span_fst_nonempty_lt; [exact Es|].
  cbn [span] in Es. unfold is_word in Es. rewrite Ea in Es. cbn [orb] in Es.
  destruct (span _ r). injection Es as <- _. discriminate.
Qed.

Lemma lex_step_shorter s t v rest : lex_step s = StepTok t v rest -> (length rest < length s)%nat.
Proof.
  destruct s as [|c r]; [discriminate|]. rewrite lex_step_cons.
  destruct ((c =? 96) || (c =? 34)).
  { destruct (scan_string (c =? 96) r []) as [v' rest'| |] eqn:E; try discriminate.
    intro H. injection H as _ _ <-. apply scan_string_shorter in E. cbn [length]. lia. }
  destruct (scan_block_comment (c :: r)) as [[b rest']|] eqn:Eb;
    [intro H; injection H as _ _ <-; exact (scan_block_comment_shorter _ _ _ Eb)|].
  destruct (scan_line_comment (c :: r)) as [[b rest']|] eqn:El;
    [intro H; injection H as _ _ <-; exact (scan_line_comment_shorter _ _ _ El)|].
  destruct (scan_bool (c :: r)) as [[v' rest']|] eqn:Ebo;
    [intro H; injection H as _ _ <-; exact (scan_bool_shorter _ _ _ Ebo)|].
  destruct (scan_number (c :: r)) as [[v' rest']|] eqn:En;
    [intro H; injection H as _ _ <-; exact (scan_number_shorter _ _ _ En)|].
  destruct (scan_ident (c :: r)) as [[[t' v'] rest']|] eqn:Ei;
    [intro H; injection H as _ _ <-; exact (scan_ident_shorter _ _ _ _ Ei)|].
  destruct (first_match punct_table (c :: r)) as [[[t' v'] rest']|] eqn:Ef; [|discriminate].
  intro H. injection H as _ _ <-. exact (punct_match_shorter _ _ _ _ Ef).
Qed.

Lemma lex_loop_fuel fuel : forall s rc acc, (length s < fuel)%nat -> lex_loop fuel s rc acc <> LexFuel.
Proof.
  induction fuel as [|f IH]; intros s rc acc Hl; [lia|].
  destruct s as [|c r]; [cbn [lex_loop]; discriminate|].
  rewrite lex_loop_step by discriminate.
  destruct (lex_step (c :: r)) as [t v rest|] eqn:E; [|discriminate].
  apply lex_step_shorter in E. apply IH. lia.
Qed.

Theorem tokenize_total src : tokenize src <> LexFuel.
Proof. unfold tokenize. apply lex_loop_fuel. lia. Qed.
