(* Proofs for the lexer model: every lexical item is recognised as the token the grammar prescribes, at its
   position (round trip); lexical errors. *)
From Verif Require Import Base.Bytestr Base.ListFacts gen.Tables Lex.LexModel Lex.LexSpec.
From Coq Require Import PeanoNat ZifyBool.
Open Scope N_scope.

Lemma consumed_app (a r : bytes) : consumed (a ++ r) r = a.
Proof. unfold consumed. rewrite app_length, Nat.add_sub. apply firstn_app_length. Qed.

Lemma advance_app a b rc : advance (a ++ b) rc = advance b (advance a rc).
Proof. revert rc; induction a as [|c a IH]; intro rc; simpl; [reflexivity|apply IH]. Qed.

Definition punct_head_ok (e : bytes * toktype) : bool :=
  match fst e with
  | c :: _ => negb (is_alpha_ c) && negb (is_digit c) && negb (c =? 34) && negb (c =? 96)
  | [] => false
  end.

Lemma punct_heads : forallb punct_head_ok punct_table = true.
Proof. vm_compute. reflexivity. Qed.

Lemma punct_key_head k t : In (k, t) punct_table ->
  exists c k', k = c :: k' /\ is_alpha_ c = false /\ is_digit c = false /\ (c =? 34) = false /\ (c =? 96) = false.
Proof.
  intro Hin. pose proof punct_heads as Hh. rewrite forallb_forall in Hh. specialize (Hh _ Hin).
  unfold punct_head_ok in Hh. cbn [fst] in Hh. destruct k as [|c k']; [discriminate|]. exists c, k'.
  rewrite !andb_true_iff, !negb_true_iff in Hh. tauto.
Qed.

Lemma item_wf_punct k t : item_wf (IPunct k t) = true -> In (k, t) punct_table.
Proof.
  cbn [item_wf]. intro H. apply existsb_exists in H as [[k0 t0] [Hin H]]. cbn [fst snd] in H.
  apply andb_true_iff in H as [Hk Ht]. apply beq_eq in Hk. apply internal_toktype_dec_bl in Ht. subst. exact Hin.
Qed.

(* the order of the table gives longest match: on the text of an entry first_match finds that entry and leaves nothing over *)
Lemma punct_self_match :
  forallb (fun e => match first_match punct_table (fst e) with
                    | Some (t, k, r) => beq k (fst e) && toktype_beq t (snd e) && beq r []
                    | None => false end) punct_table = true.
Proof. vm_compute. reflexivity. Qed.

Lemma scan_string_char raw c s acc : schar_wf raw c = true ->
  scan_string raw (schar_text c ++ s) acc = scan_string raw s (schar_value c :: acc).
Proof.
  destruct c as [b|k], raw; try discriminate;
    cbn [schar_wf schar_text schar_value app scan_string negb andb]; intro Hc.
  - destruct (b =? 96); [discriminate|reflexivity].
  - destruct (b =? 92); [rewrite andb_false_r in Hc; discriminate|].
    destruct (b =? 34); [discriminate|reflexivity].
  - (* unescape1 is the lookup in esc_table: both unfold to the same chain of comparisons *)
    change (unescape1 k) with (assoc k esc_table). change (92 =? 92) with true. cbv iota.
    destruct (assoc k esc_table) eqn:Ea; [|discriminate].
    destruct (N.eqb_spec k 10) as [->|]; [discriminate Ea|reflexivity].
Qed.

Lemma scan_string_chars raw cs tail acc :
  forallb (schar_wf raw) cs = true ->
  scan_string raw (concat (map schar_text cs) ++ tail) acc
  = scan_string raw tail (rev (map schar_value cs) ++ acc).
Proof.
  revert acc; induction cs as [|c cs IH]; intros acc Hwf; [reflexivity|].
  cbn [forallb] in Hwf. apply andb_true_iff in Hwf as [Hc Hcs].
  cbn [map concat rev]. rewrite <- !app_assoc, scan_string_char, IH by assumption. reflexivity.
Qed.

Lemma lex_step_quote raw r :
  lex_step (quote raw :: r)
  = match scan_string raw r [] with StrOk v rest => StepTok STRING_LITERAL v rest | _ => StepErr end.
Proof. destruct raw; reflexivity. Qed.

Lemma lex_step_str raw cs rest :
  item_wf (IStr raw cs) = true ->
  lex_step (item_text (IStr raw cs) ++ rest) = StepTok STRING_LITERAL (map schar_value cs) rest.
Proof.
  intro Hwf. cbn [item_text app]. rewrite <- app_assoc, lex_step_quote, scan_string_chars by exact Hwf.
  destruct raw; cbn [app quote scan_string]; rewrite app_nil_r, rev_involutive; reflexivity.
Qed.

Lemma lex_step_unterminated raw cs :
  forallb (schar_wf raw) cs = true ->
  lex_step (quote raw :: concat (map schar_text cs)) = StepErr.
Proof.
  intro Hwf. rewrite lex_step_quote, <- (app_nil_r (concat _)), scan_string_chars by exact Hwf. reflexivity.
Qed.

Lemma find_close_app x r n : find_close x = Some n -> find_close (x ++ r) = Some n.
Proof.
  revert n. induction x as [|c x IH]; intros n H; [discriminate|]. cbn [find_close app] in H |- *.
  destruct x as [|d x']; [destruct (c =? 42); discriminate H|].
  change (hd_is 47 ((d :: x') ++ r)) with (hd_is 47 (d :: x')).
  destruct ((c =? 42) && hd_is 47 (d :: x')); [exact H|].
  destruct (find_close (d :: x')) as [m|]; [|discriminate]. rewrite (IH m eq_refl). exact H.
Qed.

Lemma scan_block_comment_item body rest :
  item_wf (IBlock body) = true ->
  scan_block_comment (47 :: 42 :: body ++ [42; 47] ++ rest) = Some (body, rest).
Proof.
  unfold item_wf. intro H.
  destruct (find_close (body ++ [42; 47])) as [n|] eqn:Ef; [|discriminate].
  apply Nat.eqb_eq in H. subst n.
  unfold scan_block_comment. cbn [strip_prefix N.eqb Pos.eqb].
  rewrite (app_assoc body), (find_close_app _ rest _ Ef), <- app_assoc, firstn_app_length, skipn_add, skipn_app_length.
  reflexivity.
Qed.

Lemma scan_line_comment_item body rest :
  forallb not_nl body = true -> follow_ok (ILine body) rest = true ->
  scan_line_comment (47 :: 47 :: body ++ rest) = Some (body, rest).
Proof.
  intros Hb Hr. unfold scan_line_comment.
  change (strip_prefix [47; 47] (47 :: 47 :: body ++ rest)) with (Some (body ++ rest)).
  cbv beta iota.
  rewrite span_all; [reflexivity|exact Hb|].
  simpl in Hr. destruct rest as [|c r]; [reflexivity|]. unfold not_nl. rewrite Hr. reflexivity.
Qed.

Lemma strip_word p : forallb is_word p = true ->
  forall s rest r, forallb is_word s = true -> word_boundary rest = true ->
  strip_prefix p (s ++ rest) = Some r -> word_boundary r = true -> s = p.
Proof.
  induction p as [|x p IH]; intros Hp s rest r Hs Hr E Hb.
  - injection E as <-. destruct s as [|c s]; [reflexivity|].
    cbn in Hs, Hb. apply andb_true_iff in Hs as [Hc _]. rewrite Hc in Hb. discriminate.
  - cbn [forallb] in Hp. apply andb_true_iff in Hp as [Hx Hp].
    destruct s as [|c s]; cbn [app] in E.
    + destruct rest as [|y rest]; [discriminate|]. cbn [strip_prefix] in E.
      destruct (N.eqb_spec x y) as [<-|]; [|discriminate]. cbn in Hr. rewrite Hx in Hr. discriminate.
    + cbn [strip_prefix] in E. destruct (N.eqb_spec x c) as [<-|]; [|discriminate].
      cbn [forallb] in Hs. apply andb_true_iff in Hs as [_ Hs]. f_equal. exact (IH Hp s rest r Hs Hr E Hb).
Qed.

Lemma scan_bool_word s rest :
  forallb is_word s = true -> word_boundary rest = true ->
  scan_bool (s ++ rest) = if beq s (bs "true") || beq s (bs "false") then Some (s, rest) else None.
Proof.
  intros Hs Hr. unfold scan_bool.
  destruct (beq s (bs "true")) eqn:B1; [apply beq_eq in B1; subst s; rewrite strip_prefix_app, Hr; reflexivity|].
  destruct (beq s (bs "false")) eqn:B2; [apply beq_eq in B2; subst s; cbn; rewrite Hr; reflexivity|].
  (* neither keyword: a probe that strips one and stops at a boundary would make s that keyword *)
  assert (forall p r, forallb is_word p = true -> beq s p = false ->
            strip_prefix p (s ++ rest) = Some r -> word_boundary r = false) as Hmiss.
  { intros p r Hp B E. destruct (word_boundary r) eqn:Hb; [|reflexivity].
    rewrite (strip_word p Hp s rest r Hs Hr E Hb), beq_refl in B. discriminate. }
  destruct (strip_prefix (bs "true") (s ++ rest)) as [r|] eqn:E1; [rewrite (Hmiss (bs "true") r eq_refl B1 E1); reflexivity|].
  destruct (strip_prefix (bs "false") (s ++ rest)) as [r|] eqn:E2; [rewrite (Hmiss (bs "false") r eq_refl B2 E2)|]; reflexivity.
Qed.

Lemma sbc_none c r : (c =? 47) = false -> scan_block_comment (c :: r) = None.
Proof. intro H. unfold scan_block_comment. cbn [strip_prefix]. rewrite N.eqb_sym, H. reflexivity. Qed.

Lemma slc_none c r : (c =? 47) = false -> scan_line_comment (c :: r) = None.
Proof. intro H. unfold scan_line_comment. cbn [strip_prefix]. rewrite N.eqb_sym, H. reflexivity. Qed.

Lemma scan_bool_other c r : is_alpha_ c = false -> scan_bool (c :: r) = None.
Proof.
  intro Ha. assert ((116 =? c) = false /\ (102 =? c) = false) as [H1 H2]
    by (unfold is_alpha_, is_upper, is_lower in Ha; lia).
  unfold scan_bool. change (bs "true") with (116 :: bs "rue"). change (bs "false") with (102 :: bs "alse").
  cbn [strip_prefix]. rewrite H1, H2. reflexivity.
Qed.

Lemma scan_number_none c r :
  is_digit c = false -> (c =? 45) && starts_digit r = false -> scan_number (c :: r) = None.
Proof.
  intros Hd Hm. unfold scan_number, scan_unsigned. cbn [hd_is tl]. destruct (c =? 45).
  - destruct r as [|d r]; [reflexivity|]. cbn [span]. cbn in Hm. rewrite Hm. reflexivity.
  - cbn [span]. rewrite Hd. reflexivity.
Qed.

Lemma scan_ident_other c r : is_alpha_ c = false -> scan_ident (c :: r) = None.
Proof. intro H. unfold scan_ident. rewrite H. reflexivity. Qed.

Lemma lex_step_cons c r :
  lex_step (c :: r) =
  if (c =? 96) || (c =? 34) then
    match scan_string (c =? 96) r [] with StrOk v rest => StepTok STRING_LITERAL v rest | _ => StepErr end
  else match scan_block_comment (c :: r) with Some (b, rest) => StepTok COMMENT b rest | None =>
       match scan_line_comment (c :: r) with Some (b, rest) => StepTok COMMENT b rest | None =>
       match scan_bool (c :: r) with Some (v, rest) => StepTok BOOL_LITERAL v rest | None =>
       match scan_number (c :: r) with Some (v, rest) => StepTok NUMBER_LITERAL v rest | None =>
       match scan_ident (c :: r) with Some (t, v, rest) => StepTok t v rest | None =>
       match first_match punct_table (c :: r) with Some (t, v, rest) => StepTok t v rest | None => StepErr
       end end end end end end.
Proof. reflexivity. Qed.

Lemma lex_step_alpha c r : is_alpha_ c = true ->
  lex_step (c :: r) =
  match scan_bool (c :: r) with Some (v, rest) => StepTok BOOL_LITERAL v rest | None =>
  match scan_ident (c :: r) with Some (t, v, rest) => StepTok t v rest | None => StepErr end end.
Proof.
  intro Ha.
  assert ((c =? 96) = false /\ (c =? 34) = false /\ (c =? 47) = false /\ (c =? 45) = false /\ is_digit c = false)
    as (C96 & C34 & C47 & C45 & Hd) by (unfold is_alpha_, is_upper, is_lower, is_digit in *; lia).
  rewrite lex_step_cons, C96, C34, (sbc_none _ _ C47), (slc_none _ _ C47),
    (scan_number_none _ _ Hd (andb_false_intro1 _ _ C45)).
  unfold scan_ident. rewrite Ha. destruct (span is_word (c :: r)). reflexivity.
Qed.

Lemma lex_step_num s v rest : scan_number s = Some (v, rest) -> lex_step s = StepTok NUMBER_LITERAL v rest.
Proof.
  destruct s as [|c r]; [discriminate|]. intro Hn.
  assert ((c =? 45) || is_digit c = true) as Hc.
  { destruct (c =? 45) eqn:C45; [reflexivity|]. destruct (is_digit c) eqn:Hd; [reflexivity|].
    rewrite (scan_number_none _ _ Hd (andb_false_intro1 _ _ C45)) in Hn. discriminate. }
  assert ((c =? 96) = false /\ (c =? 34) = false /\ (c =? 47) = false /\ is_alpha_ c = false)
    as (C96 & C34 & C47 & Ha) by (unfold is_alpha_, is_upper, is_lower, is_digit in *; lia).
  rewrite lex_step_cons, C96, C34, (sbc_none _ _ C47), (slc_none _ _ C47), (scan_bool_other _ _ Ha), Hn. reflexivity.
Qed.

(* the heads of the punctuation keys, and of what is no token at all *)
Lemma lex_step_other c r : is_alpha_ c = false -> (c =? 34) = false -> (c =? 96) = false ->
  lex_step (c :: r) =
  match scan_block_comment (c :: r) with Some (b, rest) => StepTok COMMENT b rest | None =>
  match scan_line_comment (c :: r) with Some (b, rest) => StepTok COMMENT b rest | None =>
  match scan_number (c :: r) with Some (v, rest) => StepTok NUMBER_LITERAL v rest | None =>
  match first_match punct_table (c :: r) with Some (t, v, rest) => StepTok t v rest | None => StepErr
  end end end end.
Proof.
  intros Ha C34 C96. rewrite lex_step_cons, C96, C34, (scan_bool_other _ _ Ha), (scan_ident_other _ _ Ha). reflexivity.
Qed.

Lemma lex_step_word s rest :
  item_wf (IWord s) = true -> follow_ok (IWord s) rest = true ->
  lex_step (s ++ rest) = StepTok (word_type s) s rest.
Proof.
  intros Hwf Hf. cbn [item_wf follow_ok] in Hwf, Hf.
  destruct s as [|c s']; [discriminate|]. apply andb_true_iff in Hwf as [Hc Hs].
  cbn [app]. rewrite (lex_step_alpha _ _ Hc). change (c :: s' ++ rest) with ((c :: s') ++ rest).
  rewrite (scan_bool_word _ _ Hs Hf). unfold word_type.
  destruct (beq (c :: s') (bs "true") || beq (c :: s') (bs "false")); [reflexivity|].
  unfold scan_ident. cbn [app]. rewrite Hc. change (c :: s' ++ rest) with ((c :: s') ++ rest).
  rewrite (span_all is_word _ _ Hs Hf). reflexivity.
Qed.

Lemma scan_unsigned_item sign ds fs rest :
  digits ds = true -> match fs with Some f => digits f | None => true end = true ->
  follow_ok (INum false ds fs) rest = true ->
  scan_unsigned sign (ds ++ match fs with Some f => 46 :: f | None => [] end ++ rest)
  = Some (sign ++ ds ++ match fs with Some f => 46 :: f | None => [] end, rest).
Proof.
  intros Hds Hfs Hf. simpl in Hf. apply andb_true_iff in Hf as [Hr1 Hr2].
  destruct ds as [|d ds]; [discriminate|]. cbn [digits] in Hds.
  assert (Hnd : match rest with [] => true | c :: _ => negb (is_digit c) end = true).
  { destruct rest; [reflexivity|exact Hr1]. }
  unfold scan_unsigned. destruct fs as [[|x f]|]; [discriminate| |].
  - cbn [digits] in Hfs. change ((46 :: x :: f) ++ rest) with (46 :: (x :: f) ++ rest).
    rewrite (span_all is_digit (d :: ds) (46 :: _) Hds eq_refl). cbn [hd_is tl]. change (46 =? 46) with true. cbv iota.
    rewrite (span_all _ _ _ Hfs Hnd). reflexivity.
  - change ([] ++ rest) with rest. rewrite app_nil_r, (span_all _ _ _ Hds Hnd).
    destruct (hd_is 46 rest) eqn:H46; [|reflexivity].
    cbn [andb] in Hr2.
    destruct rest as [|c [|c2 r2]]; [discriminate|reflexivity|]. cbn [tl span] in *.
    unfold starts_digit in Hr2. destruct (is_digit c2); [discriminate|]. reflexivity.
Qed.

Lemma scan_number_item neg ds fs rest :
  item_wf (INum neg ds fs) = true -> follow_ok (INum neg ds fs) rest = true ->
  scan_number (num_text neg ds fs ++ rest) = Some (num_text neg ds fs, rest).
Proof.
  intros Hwf Hf. cbn [item_wf] in Hwf. apply andb_true_iff in Hwf as [Hds Hfs].
  unfold scan_number, num_text. rewrite <- !app_assoc. destruct neg; cbn [app].
  - exact (scan_unsigned_item [45] ds fs rest Hds Hfs Hf).
  - replace (hd_is 45 _) with false; [exact (scan_unsigned_item [] ds fs rest Hds Hfs Hf)|].
    destruct ds as [|d ds]; [discriminate|]. cbn in Hds |- *. unfold is_digit in Hds. lia.
Qed.

Lemma first_match_in t x ty k r : first_match t x = Some (ty, k, r) -> In (k, ty) t /\ x = k ++ r.
Proof.
  induction t as [|[k' v] t IH]; cbn [first_match]; [discriminate|].
  destruct (strip_prefix k' x) as [r'|] eqn:E.
  - intro H. injection H as <- <- <-. split; [left; reflexivity|apply strip_prefix_some, E].
  - intro H. destruct (IH H). split; [right|]; assumption.
Qed.

Lemma lex_step_punct k t rest :
  item_wf (IPunct k t) = true -> follow_ok (IPunct k t) rest = true ->
  lex_step (k ++ rest) = StepTok t k rest.
Proof.
  intros Hwf Hf.
  destruct (punct_key_head k t (item_wf_punct k t Hwf)) as (c & k' & -> & Ha & Hd & C34 & C96).
  cbn [follow_ok] in Hf. cbn [app hd_is tl] in *.
  apply andb_true_iff in Hf as [Hf Hfm]. apply andb_true_iff in Hf as [Hf Hmd]. apply andb_true_iff in Hf as [Hlc Hbc].
  apply negb_true_iff in Hlc, Hmd.
  rewrite (lex_step_other _ _ Ha C34 C96).
  destruct (scan_block_comment (c :: k' ++ rest)); [discriminate|].
  unfold scan_line_comment. rewrite (has_prefix_false_strip _ _ Hlc), (scan_number_none _ _ Hd Hmd).
  destruct (first_match punct_table (c :: k' ++ rest)) as [[[t' k2] r2]|] eqn:Efm; [|discriminate].
  apply andb_true_iff in Hfm as [Hk2 Ht2]. apply beq_eq in Hk2. subst k2.
  apply internal_toktype_dec_bl in Ht2. subst t'.
  apply first_match_in in Efm as [_ Efm].
  change (c :: k' ++ rest) with ((c :: k') ++ rest) in Efm. apply app_inv_head in Efm. subst r2. reflexivity.
Qed.

Lemma lex_step_line body rest :
  item_wf (ILine body) = true -> follow_ok (ILine body) rest = true ->
  lex_step (item_text (ILine body) ++ rest) = StepTok COMMENT body rest.
Proof.
  intros Hwf Hf. cbn [item_wf] in Hwf. cbn [item_text].
  change ((47 :: 47 :: body) ++ rest) with (47 :: 47 :: body ++ rest).
  rewrite lex_step_cons. change ((47 =? 96) || (47 =? 34)) with false. cbv iota.
  assert (scan_block_comment (47 :: 47 :: body ++ rest) = None) as Hb by reflexivity.
  rewrite Hb. rewrite scan_line_comment_item by assumption. reflexivity.
Qed.

Lemma lex_step_block body rest :
  item_wf (IBlock body) = true ->
  lex_step (item_text (IBlock body) ++ rest) = StepTok COMMENT body rest.
Proof.
  intro Hwf. cbn [item_text].
  change ((47 :: 42 :: body ++ [42; 47]) ++ rest) with (47 :: 42 :: (body ++ [42; 47]) ++ rest).
  rewrite <- app_assoc.
  rewrite lex_step_cons. change ((47 =? 96) || (47 =? 34)) with false. cbv iota.
  rewrite scan_block_comment_item by exact Hwf. reflexivity.
Qed.

Definition step_type (it : item) : toktype :=
  match it with
  | IWord s => word_type s
  | INum _ _ _ => NUMBER_LITERAL
  | IStr _ _ => STRING_LITERAL
  | IPunct _ t => t
  | ILine _ | IBlock _ => COMMENT
  end.

Definition step_value (it : item) : bytes :=
  match it with
  | IWord s => s
  | INum n d f => num_text n d f
  | IStr _ cs => map schar_value cs
  | IPunct k _ => k
  | ILine b | IBlock b => b
  end.

Lemma lex_step_item it rest :
  item_wf it = true -> follow_ok it rest = true ->
  lex_step (item_text it ++ rest) = StepTok (step_type it) (step_value it) rest.
Proof.
  intros Hwf Hf. destruct it as [s|n d f|raw cs|k t|b|b].
  - apply lex_step_word; assumption.
  - apply lex_step_num, scan_number_item; assumption.
  - apply lex_step_str; assumption.
  - apply lex_step_punct; assumption.
  - apply lex_step_line; assumption.
  - apply lex_step_block; assumption.
Qed.

Lemma item_tok_step it :
  item_tok it = if dropped (step_type it) then None else Some (step_type it, step_value it).
Proof.
  destruct it as [s|n d f|raw cs|k t|b|b]; cbn [item_tok step_type step_value dropped]; try reflexivity.
  unfold word_type. destruct (beq s (bs "true") || beq s (bs "false")); [reflexivity|].
  assert (forallb (fun e => negb (dropped (snd e))) keyword_table = true) as Hk by (vm_compute; reflexivity).
  destruct (lookup s keyword_table) as [t|] eqn:El; [|reflexivity].
  assert (forall tb, lookup s tb = Some t -> forallb (fun e => negb (dropped (snd e))) tb = true -> dropped t = false) as Hl.
  { induction tb as [|[k' v] tb IH]; simpl; [discriminate|].
    intros H1 H2. apply andb_true_iff in H2 as [H2 H3].
    destruct (beq s k'); [inversion H1; subst; apply negb_true_iff; exact H2|apply IH; assumption]. }
  rewrite (Hl _ El Hk). reflexivity.
Qed.

Lemma item_text_nonempty it : item_wf it = true -> item_text it <> [].
Proof.
  destruct it as [s|n d f|raw cs|k t|b|b]; cbn [item_wf item_text]; intro H; try discriminate.
  - destruct s; [discriminate|discriminate].
  - apply andb_true_iff in H as [H _]. destruct d; [discriminate|]. unfold num_text. destruct n; discriminate.
  - destruct (punct_key_head k t (item_wf_punct k t H)) as (c & k' & -> & _). discriminate.
Qed.

Lemma lex_loop_step f s rc acc :
  s <> [] ->
  lex_loop (S f) s rc acc =
  match lex_step s with
  | StepErr => LexErr
  | StepTok t v rest =>
      lex_loop f rest (advance (consumed s rest) rc) (if dropped t then acc else mkTok t v (fst rc) (snd rc) :: acc)
  end.
Proof. destruct s; [congruence|reflexivity]. Qed.

Lemma lex_loop_items items : forall tail rc acc fuel,
  items_ok items tail = true ->
  lex_loop (length items + fuel) (render items ++ tail) rc acc
  = lex_loop fuel tail (advance (render items) rc) (rev (expected items rc) ++ acc).
Proof.
  induction items as [|it items IH]; intros tail rc acc fuel Hok.
  - reflexivity.
  - cbn [items_ok] in Hok. apply andb_true_iff in Hok as [Hok Hrest]. apply andb_true_iff in Hok as [Hwf Hf].
    cbn [length plus render map concat]. fold (render items). rewrite <- app_assoc.
    rewrite lex_loop_step.
    2:{ intro E. apply app_eq_nil in E as [E _]. exact (item_text_nonempty it Hwf E). }
    rewrite (lex_step_item it (render items ++ tail) Hwf Hf).
    rewrite consumed_app. rewrite IH by exact Hrest.
    rewrite advance_app. cbn [expected]. rewrite (item_tok_step it).
    destruct (dropped (step_type it)); [reflexivity|].
    cbn [rev]. rewrite <- app_assoc. reflexivity.
Qed.

Lemma items_length items tail : items_ok items tail = true -> (length items <= length (render items))%nat.
Proof.
  induction items as [|it items IH]; intro H; [simpl; lia|].
  cbn [items_ok] in H. apply andb_true_iff in H as [H Hr]. apply andb_true_iff in H as [Hwf _].
  cbn [render map concat length]. fold (render items). rewrite app_length.
  specialize (IH Hr). pose proof (item_text_nonempty it Hwf) as Hne.
  destruct (item_text it); [congruence|]. simpl. lia.
Qed.

Lemma lex_loop_nil fuel rc acc : lex_loop fuel [] rc acc = LexOk (rev (eof_at rc :: acc)).
Proof. destruct fuel; reflexivity. Qed.

(* an item has at least one byte, so the fuel that is left for the tail is positive *)
Theorem tokenize_prefix items tail :
  items_ok items tail = true -> replace_crlf (render items ++ tail) = render items ++ tail ->
  tokenize (render items ++ tail)
  = lex_loop (S (length (render items ++ tail) - length items)) tail
             (advance (render items) (1, 1)) (rev (expected items (1, 1))).
Proof.
  intros Hok Hcr. unfold tokenize. rewrite Hcr.
  assert (length items <= length (render items ++ tail))%nat as Hlen
    by (rewrite app_length; pose proof (items_length items tail Hok); lia).
  replace (S (length (render items ++ tail)))
    with (length items + S (length (render items ++ tail) - length items))%nat by lia.
  rewrite lex_loop_items, app_nil_r by exact Hok. reflexivity.
Qed.

Lemma tokenize_items items :
  items_ok items [] = true -> replace_crlf (render items) = render items ->
  tokenize (render items) = LexOk (expected items (1, 1) ++ [eof_at (advance (render items) (1, 1))]).
Proof.
  rewrite <- (app_nil_r (render items)) at 1 2 3. intros Hok Hcr.
  rewrite tokenize_prefix, lex_loop_nil by assumption. cbn [rev]. rewrite rev_involutive. reflexivity.
Qed.

Lemma tokenize_items_err items tail :
  items_ok items tail = true -> replace_crlf (render items ++ tail) = render items ++ tail ->
  tail <> [] -> lex_step tail = StepErr ->
  tokenize (render items ++ tail) = LexErr.
Proof.
  intros Hok Hcr Hne Herr. rewrite tokenize_prefix, lex_loop_step, Herr by assumption. reflexivity.
Qed.

(* a byte with which no token of the grammar starts *)
Definition unknown_byte (c : N) : bool :=
  negb (is_alpha_ c) && negb (is_digit c) && negb (c =? 34) && negb (c =? 96)
  && negb (existsb (fun e => hd_is c (fst e)) punct_table).

Lemma lex_step_unknown c r : unknown_byte c = true -> lex_step (c :: r) = StepErr.
Proof.
  unfold unknown_byte. rewrite !andb_true_iff, !negb_true_iff. intros ((((Ha & Hd) & C34) & C96) & Hp).
  (* the slash and the minus sign are keys of the table *)
  assert (forall d, existsb (fun e => hd_is d (fst e)) punct_table = true -> (c =? d) = false) as Hkey.
  { intros d Hd'. destruct (N.eqb_spec c d) as [->|]; [congruence|reflexivity]. }
  rewrite (lex_step_other _ _ Ha C34 C96), (sbc_none _ _ (Hkey 47 eq_refl)), (slc_none _ _ (Hkey 47 eq_refl)),
    (scan_number_none _ _ Hd (andb_false_intro1 _ _ (Hkey 45 eq_refl))).
  destruct (first_match punct_table (c :: r)) as [[[t k] r']|] eqn:E; [|reflexivity].
  (* a match would be a key of the table that starts with c *)
  apply first_match_in in E as [Hin Hx]. destruct (punct_key_head _ _ Hin) as (c' & k' & -> & _).
  injection Hx as <- _. exfalso. refine (eq_true_false_abs _ _ Hp). apply existsb_exists.
  exists (c :: k', t). split; [exact Hin|apply N.eqb_refl].
Qed.

Lemma punct_match_shorter x ty k r :
  first_match punct_table x = Some (ty, k, r) -> (length r < length x)%nat.
Proof.
  intro H. apply first_match_in in H as [Hin ->]. destruct (punct_key_head _ _ Hin) as (c & k' & -> & _).
  rewrite app_length. cbn [length]. lia.
Qed.
