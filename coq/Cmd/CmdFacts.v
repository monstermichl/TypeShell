(* Facts about the building blocks of the cmd.exe model (Cmd/CmdModel.v):
     (a) set /A: one binary operation gives what the 64 bit reference arithmetic gives, when that is a 32 bit number
     (b) IF: the comparison of the decimal texts of two integers is the integer comparison;
         texts in double quotes are compared as strings
     (c) the forward-then-wrap label search finds a label that occurs once, wherever it starts
     (d) percent expansion leaves a line without percent sign alone (the statement table of load_script)
   and a run of a small script under vm_compute. *)
From Verif Require Import Base.Bytestr Base.ListFacts Base.DecFacts Front.Ast Front.FrontModel Sem.Src Sem.SrcFacts Cmd.CmdModel.
From Coq Require Import ZArith.
Open Scope N_scope.

Definition in32 (z : Z) : Prop := (-2147483648 <= z <= 2147483647)%Z.

Lemma to_i32_id z : in32 z -> to_i32 z = z.
Proof. exact (wrap_id 2147483648 z). Qed.
Print Assumptions to_i32_id.

Lemma to_i32_range z : in32 (to_i32 z).
Proof. exact (wrap_range 2147483648 z eq_refl). Qed.
Print Assumptions to_i32_range.

Theorem arith_op_div_zero o a : o = 47 \/ o = 37 -> arith_op o a 0 = None.
Proof. intros [Ho|Ho]; subst o; reflexivity. Qed.
Print Assumptions arith_op_div_zero.

Theorem arith_op_range o a b r : arith_op o a b = Some r -> in32 r.
Proof.
  unfold arith_op. destruct (o =? 42), (o =? 43), (o =? 45), (b =? 0)%Z, (o =? 47); intro H; try discriminate H;
    injection H as <-; apply to_i32_range.
Qed.
Print Assumptions arith_op_range.

Definition op_char (op : binop) : N :=
  match op with OpAdd => 43 | OpSub => 45 | OpMul => 42 | OpDiv => 47 | OpMod => 37 end.

(* 2^32 divides 2^64: narrowing to 32 bits does not see whether the 64 bit result had wrapped *)
Lemma to_i32_wrap64 z : to_i32 (wrap64 z) = to_i32 z.
Proof. exact (wrap_wrap 4294967296 2147483648 z). Qed.

(* the operands need not be 32 bit numbers, only the reference result *)
Theorem arith_op_src op a b r :
  Src.arith op a b = Some r -> in32 r -> arith_op (op_char op) a b = Some r.
Proof.
  intros Hs Hr. rewrite <- (to_i32_id r Hr).
  destruct op; cbn [Src.arith op_char] in Hs; unfold arith_op; cbn [N.eqb Pos.eqb].
  - injection Hs as <-. rewrite to_i32_wrap64. reflexivity.
  - destruct (b =? 0)%Z; [discriminate|]. injection Hs as <-. rewrite to_i32_wrap64. reflexivity.
  - destruct (Z.eqb_spec b 0) as [|E]; [discriminate|]. injection Hs as <-.
    rewrite (Z.rem_eq a b E), (Z.mul_comm b). reflexivity.
  - injection Hs as <-. rewrite to_i32_wrap64. reflexivity.
  - injection Hs as <-. rewrite to_i32_wrap64. reflexivity.
Qed.
Print Assumptions arith_op_src.

Lemma digits_n_dec_N n : digits_n (dec_N n) = n.
Proof. exact (proj2 (digits_val_some _ _ _ (digits_dec_N n))). Qed.

Lemma strip_one_lf_id s : ~ In 10 s -> strip_one_lf s = s.
Proof.
  intro H. unfold strip_one_lf. destruct (rev s) as [|c r] eqn:E; [reflexivity|].
  destruct (N.eqb_spec c 10) as [->|]; [|reflexivity].
  destruct H. apply in_rev. rewrite E. left. reflexivity.
Qed.

Lemma digits_not_lf ds : forallb is_digit ds = true -> ~ In 10 ds.
Proof. intros H Hin. rewrite forallb_forall in H. discriminate (H _ Hin). Qed.

(* IF on a digit string without leading zero (that would be octal), with or without a minus sign in front *)
Lemma as_int_digits (neg : bool) ds s :
  forallb is_digit ds = true -> ds <> [] -> hd_is 48 ds = false -> s = (if neg then 45 :: ds else ds) ->
  as_int s = Some (if neg then - Z.of_N (digits_n ds) else Z.of_N (digits_n ds))%Z.
Proof.
  intros Hd Hne H0 Es. pose proof (digits_not_lf ds Hd) as Hlf.
  pose proof (digits_hd 45 ds Hd eq_refl) as H45. pose proof (digits_hd 43 ds Hd eq_refl) as H43.
  assert (hd_is 45 s = neg) as Hn by (subst s; destruct neg; [reflexivity|exact H45]).
  assert ((if neg || hd_is 43 s then tl s else s) = ds) as Hds
    by (subst s; destruct neg; [reflexivity|cbn [orb]; rewrite H43; reflexivity]).
  unfold as_int. cbv zeta. rewrite strip_one_lf_id.
  - rewrite Hn, Hds, Hd, H0, andb_false_r. destruct ds; [congruence|reflexivity].
  - subst s. destruct neg; [intros [E|E]; [discriminate E|]|intro E]; exact (Hlf E).
Qed.

(* IF reads the decimal text of an integer as that integer *)
Theorem as_int_dec_Z z : as_int (dec_Z z) = Some z.
Proof.
  destruct z as [|p|p]; [reflexivity| |]; cbn [dec_Z].
  - rewrite (as_int_digits false _ _ (dec_N_digits _) (dec_N_nonempty _) (dec_N_no_leading_zero p) eq_refl), digits_n_dec_N.
    reflexivity.
  - rewrite (as_int_digits true _ _ (dec_N_digits _) (dec_N_nonempty _) (dec_N_no_leading_zero p) eq_refl), digits_n_dec_N.
    reflexivity.
Qed.
Print Assumptions as_int_dec_Z.

Corollary as_int_atoi z :
  (-9223372036854775808 <= z <= 9223372036854775807)%Z -> as_int (dec_Z z) = atoi (dec_Z z).
Proof. intro H. rewrite as_int_dec_Z, atoi_dec_Z by exact H. reflexivity. Qed.
Print Assumptions as_int_atoi.

Definition cmp_table : list (bytes * (Z -> Z -> bool)) :=
  [ (kw_equ, Z.eqb); (kw_neq, fun a b => negb (Z.eqb a b)); (kw_lss, Z.ltb);
    (kw_leq, Z.leb); (kw_gtr, Z.gtb); (kw_geq, Z.geb) ].

Lemma cmp_result_table op f : In (op, f) cmp_table ->
  beq op kw_eqeq = false /\ forall a b, cmp_result op (a ?= b)%Z = Some (f a b).
Proof.
  cbn [cmp_table In].
  intros [E|[E|[E|[E|[E|[E|[]]]]]]]; injection E as <- <-; (split; [reflexivity|intros a b]).
  - rewrite Z.eqb_compare. reflexivity.
  - rewrite Z.eqb_compare. cbn. destruct (a ?= b)%Z; reflexivity.
  - reflexivity.
  - reflexivity.
  - reflexivity.
  - reflexivity.
Qed.

(* for all integers, not only those that set /A can produce *)
Theorem if_compares_integers op f a b :
  In (op, f) cmp_table -> compare_texts op (dec_Z a) (dec_Z b) = Some (f a b).
Proof.
  intro Hin. destruct (cmp_result_table _ _ Hin) as [He Hc].
  unfold compare_texts. rewrite He, !as_int_dec_Z. apply Hc.
Qed.
Print Assumptions if_compares_integers.

Lemma strip_one_lf_hd c s : c <> 10 -> exists s', strip_one_lf (c :: s) = c :: s'.
Proof.
  intro Hc. unfold strip_one_lf. destruct (rev (c :: s)) as [|d r] eqn:E.
  - exists s. reflexivity.
  - destruct (N.eqb_spec d 10) as [->|]; [|exists s; reflexivity].
    assert (c :: s = rev r ++ [10]) as Hs.
    { rewrite <- (rev_involutive (c :: s)), E. reflexivity. }
    destruct (rev r) as [|x t]; injection Hs as -> Hs; [congruence|]. exists t. reflexivity.
Qed.

Lemma as_int_quoted s : as_int (34 :: s) = None.
Proof.
  unfold as_int. destruct (strip_one_lf_hd 34 s ltac:(lia)) as (s' & Hs). rewrite Hs.
  change (hd_is 45 (34 :: s')) with false. change (hd_is 43 (34 :: s')) with false.
  cbn [orb is_empty forallb]. change (is_digit 34) with false. reflexivity.
Qed.

Theorem if_quoted_is_stringwise op l r :
  beq op kw_eqeq = false ->
  compare_texts op (34 :: l) (34 :: r) = cmp_result op (bcmp (34 :: l) (34 :: r)).
Proof. intro H. unfold compare_texts. rewrite H, as_int_quoted. reflexivity. Qed.
Print Assumptions if_quoted_is_stringwise.

Definition quoted (s : bytes) : bytes := 34 :: s ++ [34].

(* 10 LSS 9 holds for the quoted texts (the slice helpers of the Batch converter compare like this) *)
Theorem if_quoted_10_lss_9 :
  compare_texts kw_lss (quoted (dec_Z 10)) (quoted (dec_Z 9)) = Some true
  /\ compare_texts kw_lss (dec_Z 10) (dec_Z 9) = Some false.
Proof. split; vm_compute; reflexivity. Qed.
Print Assumptions if_quoted_10_lss_9.

(* the loop test of the slice helpers: index 2 is not below length 12 *)
Theorem if_quoted_2_lss_12 :
  compare_texts kw_lss (quoted (dec_Z 2)) (quoted (dec_Z 12)) = Some false.
Proof. vm_compute. reflexivity. Qed.
Print Assumptions if_quoted_2_lss_12.

Definition defines (want : bytes) (li : line_info) : Prop := li_label li = Some want.

Lemma find_idx_sound want ls : forall k r,
  find_idx want ls k = Some r ->
  exists j li, r = (k + j)%nat /\ nth_error ls j = Some li /\ defines want li.
Proof.
  induction ls as [|li ls IH]; intros k r H; cbn [find_idx] in H.
  - discriminate.
  - destruct (li_label li) as [name|] eqn:El.
    + destruct (beq name want) eqn:Eb.
      * apply beq_eq in Eb. subst name. inversion H; subst r.
        exists 0%nat, li. repeat split; [lia|exact El].
      * destruct (IH _ _ H) as (j & lj & Hr & Hn & Hd).
        exists (S j), lj. repeat split; [lia|exact Hn|exact Hd].
    + destruct (IH _ _ H) as (j & lj & Hr & Hn & Hd).
      exists (S j), lj. repeat split; [lia|exact Hn|exact Hd].
Qed.

Lemma find_idx_complete want ls : forall k j li,
  nth_error ls j = Some li -> defines want li -> find_idx want ls k <> None.
Proof.
  induction ls as [|l0 ls IH]; intros k j li Hn Hd.
  - destruct j; discriminate.
  - cbn [find_idx]. destruct j as [|j].
    + cbn in Hn. inversion Hn; subst l0. unfold defines in Hd. rewrite Hd, beq_refl. discriminate.
    + cbn in Hn. destruct (li_label l0) as [name|]; [destruct (beq name want); [discriminate|]|];
      eapply IH; eassumption.
Qed.

Definition occurs_once (infos : list line_info) (want : bytes) (i : nat) : Prop :=
  (exists li, nth_error infos i = Some li /\ defines want li) /\
  (forall j lj, nth_error infos j = Some lj -> defines want lj -> j = i).

Theorem find_label_in_once infos want i start :
  occurs_once infos want i -> find_label_in infos want start = Some i.
Proof.
  intros [(li & Hi & Hd) Huniq]. unfold find_label_in.
  destruct (find_idx want (skipn start infos) start) as [r|] eqn:E1.
  - destruct (find_idx_sound _ _ _ _ E1) as (j & lj & Hr & Hn & Hdj).
    rewrite nth_error_skipn in Hn. rewrite (Huniq _ _ Hn Hdj) in Hr. congruence.
  - destruct (Nat.le_gt_cases start i) as [Hle|Hgt].
    + exfalso. apply (find_idx_complete want (skipn start infos) start (i - start)%nat li); [|exact Hd|exact E1].
      rewrite nth_error_skipn. replace (start + (i - start))%nat with i by lia. exact Hi.
    + destruct (find_idx want (firstn start infos) 0) as [r|] eqn:E2.
      * destruct (find_idx_sound _ _ _ _ E2) as (j & lj & Hr & Hn & Hdj).
        rewrite nth_error_firstn in Hn. destruct (Nat.ltb j start); [|discriminate]. rewrite (Huniq _ _ Hn Hdj) in Hr. cbn in Hr. congruence.
      * exfalso. apply (find_idx_complete want (firstn start infos) 0 i li); [|exact Hd|exact E2].
        rewrite nth_error_firstn, (proj2 (Nat.ltb_lt i start) Hgt). exact Hi.
Qed.
Print Assumptions find_label_in_once.

(* the same for goto/call: the colon and the case of the label do not matter, :eof is not searched *)
Theorem find_label_once sc label i start :
  let want := lower (drop_while (fun c => c =? 58) label) in
  beq want kw_eof = false ->
  occurs_once (sc_info sc) want i ->
  find_label sc label start = Some i.
Proof.
  intros want Heof Hocc. unfold find_label. fold want. rewrite Heof.
  apply find_label_in_once. exact Hocc.
Qed.
Print Assumptions find_label_once.

(* a line without percent sign is its own percent expansion: the statements tabulated by load_script
   are the ones read_statement would parse *)
Lemma percent_go_no_percent env args : forall fuel line,
  has_byte 37 line = false -> (length line < fuel)%nat -> percent_go fuel env args line = line.
Proof.
  induction fuel as [|f IH]; intros line Hp Hl; [lia|].
  destruct line as [|c r]; [reflexivity|].
  cbn [percent_go]. cbn [has_byte] in Hp. destruct (c =? 37) eqn:E; [discriminate|].
  cbn [negb]. f_equal. apply IH; [exact Hp|cbn [length] in Hl; lia].
Qed.

Theorem percent_no_percent env args line : has_byte 37 line = false -> percent env args line = line.
Proof. intro H. unfold percent. apply percent_go_no_percent; [exact H|lia]. Qed.
Print Assumptions percent_no_percent.

Theorem no_percent_expand env args line t :
  no_percent line = Some t -> Some (percent env args line) = Some t.
Proof.
  unfold no_percent. destruct (has_byte 37 line) eqn:E; [discriminate|].
  intro H. inversion H; subst t. rewrite percent_no_percent by exact E. reflexivity.
Qed.
Print Assumptions no_percent_expand.

Definition crlf : bytes := [13; 10].
Definition demo_script : bytes :=
  bs "@echo off" ++ crlf ++
  bs "setlocal EnableDelayedExpansion" ++ crlf ++
  bs "set /A ""x=6*7""" ++ crlf ++
  bs "goto :skip" ++ crlf ++
  bs "echo not here" ++ crlf ++
  bs ":f" ++ crlf ++
  bs "echo f %1 !x:~1,1!" ++ crlf ++
  bs "exit /B" ++ crlf ++
  bs ":skip" ++ crlf ++
  bs "call :f a" ++ crlf ++
  bs "if ""!x!"" lss ""5"" (echo !x! lss 5) else echo no" ++ crlf ++
  bs "exit /B 3" ++ crlf.

Example demo_run :
  cmd_run 100 demo_script = CmdRan (bs "f a 2" ++ [10] ++ bs "42 lss 5" ++ [10]) 3.
Proof. vm_compute. reflexivity. Qed.

Example demo_fuel : cmd_run 5 demo_script = CmdFuel.
Proof. vm_compute. reflexivity. Qed.
