(* The witness for the recorded C05 finding, panic inside a function does not end the Batch script
   (C05_panic_in_function_refuted).  The program is parsed and translated by the models; the Batch script
   runs under the cmd.exe model, the program itself under the reference semantics. *)
From Verif Require Import Base.Bytestr Front.FrontModel Back.Transpile Back.BatchConv Front.TableCheck Sem.Src Cmd.CmdModel.
Open Scope N_scope.

Definition panic_src : bytes := bs "func f() {
	panic(""boom"")
}
print(""before"")
f()
print(""after"")
".

Definition panic_runs : option (cmd_result * run_result) :=
  match parse_main (table_env panic_src) (bs "/V/main.tsh") with
  | FrontModel.POk body _ _ _ =>
      match emit_batch body with
      | TOk script _ => Some (cmd_run 5000 script, Src.run 2000 [] [] body)
      | _ => None
      end
  | _ => None
  end.

Definition lines3 (a b c : bytes) : bytes := a ++ [10] ++ b ++ [10] ++ c ++ [10].
