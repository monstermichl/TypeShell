(* C15 -- the transliterated library (StrLib.v) returns what Go's strings
   package returns (GoStrings.v), for ALL arguments.

   Each theorem has the form   lib_f args = Some (go_f args) ;  in particular
   the fuel passed inside lib_f always suffices and no substring expression of
   the library fails in Bash.

   Every loop lemma cuts the string at the position the loop has reached,
   s = pre ++ t, takes the integer index as a variable i with i = zlen pre, and
   says what the loop returns in terms of the specification applied to t. *)
From Verif Require Import Base.Bytestr Base.ListFacts Lib.GoStrings Lib.StrLib.
From Coq Require Import ZArith ZifyBool.

Lemma zlen_app a b : zlen (a ++ b) = (zlen a + zlen b)%Z.
Proof. unfold zlen. rewrite app_length. lia. Qed.

(* integer facts about lengths: [zlen], and [length] of [++] and [::], spelled out for lia *)
Ltac zlia := unfold zlen in *; rewrite ?app_length in *; cbn [length] in *; lia.

(* deciding an integer test from the hypotheses *)
Ltac ztest b v := replace b with v by zlia; cbv iota; cbn [orb andb].

(* the loops' test i < len(s), at the cut s = pre ++ t *)
Lemma before_end pre t i : i = zlen pre -> (i <? zlen (pre ++ t))%Z = match t with [] => false | _ => true end.
Proof. intros ->. destruct t; zlia. Qed.

Lemma tsh_sub_nonneg s lo hi :
  (0 <= lo <= hi)%Z ->
  tsh_sub s lo (Some hi) = Some (firstn (Z.to_nat (hi - lo)) (skipn (Z.to_nat lo) s)).
Proof.
  intros H. unfold tsh_sub. cbv zeta. ztest (lo <? 0)%Z false. ztest (lo <? 0)%Z false.
  destruct (Z.ltb_spec (zlen s) lo) as [Hm|Hm].
  - rewrite skipn_all2, firstn_nil by zlia. reflexivity.
  - ztest (0 <=? hi - lo)%Z true. reflexivity.
Qed.

(* The library only takes substrings at positions it has reached: s is cut as
   a ++ t and the index is len(a).  In this form no conversion between Z and
   nat is left to the caller. *)
Lemma tsh_sub_firstn a t lo hi n :
  lo = zlen a -> hi = (lo + Z.of_nat n)%Z -> tsh_sub (a ++ t) lo (Some hi) = Some (firstn n t).
Proof.
  intros -> ->. rewrite tsh_sub_nonneg by zlia.
  replace (Z.to_nat (zlen a + Z.of_nat n - zlen a)) with n by lia.
  unfold zlen. rewrite Nat2Z.id, skipn_app_length. reflexivity.
Qed.

Lemma tsh_sub_cut a b c lo hi :
  lo = zlen a -> hi = (lo + zlen b)%Z -> tsh_sub (a ++ b ++ c) lo (Some hi) = Some b.
Proof.
  intros Hlo Hhi. rewrite (tsh_sub_firstn a _ lo hi (length b) Hlo Hhi), firstn_app_length. reflexivity.
Qed.

Lemma tsh_sub_tail a b lo : lo = zlen a -> tsh_sub (a ++ b) lo None = Some b.
Proof.
  intros Hlo. change (tsh_sub (a ++ b) lo (Some (zlen (a ++ b))) = Some b).
  rewrite (tsh_sub_firstn a b lo _ (length b) Hlo), firstn_all by (rewrite zlen_app, Hlo; reflexivity).
  reflexivity.
Qed.

Lemma tsh_at_app a t i : i = zlen a -> tsh_at (a ++ t) i = Some (firstn 1 t).
Proof. intros Hi. apply tsh_sub_firstn; [exact Hi|reflexivity]. Qed.

(* s[-len(t):] for a non-empty t no longer than s: the last len(t) bytes *)
Lemma tsh_sub_last s t :
  (0 < length t <= length s)%nat ->
  tsh_sub s (zlen t * -1)%Z None = Some (skipn (length s - length t) s).
Proof.
  intros H. unfold tsh_sub. cbv zeta.
  ztest (zlen t * -1 <? 0)%Z true. ztest (zlen t * -1 + zlen s <? 0)%Z false.
  ztest (zlen s <? zlen t * -1 + zlen s)%Z false.
  ztest (0 <=? zlen s - zlen t * -1)%Z true.
  replace (Z.to_nat (zlen t * -1 + zlen s)) with (length s - length t)%nat by zlia.
  f_equal. apply firstn_all2. rewrite skipn_length. zlia.
Qed.

Theorem lib_has_prefix_correct s prefix :
  lib_has_prefix s prefix = Some (go_has_prefix s prefix).
Proof.
  unfold lib_has_prefix, go_has_prefix.
  destruct (Z.geb_spec (zlen s) (zlen prefix)) as [H|H].
  - rewrite (tsh_sub_firstn [] s 0 _ (length prefix)), has_prefix_firstn by reflexivity. reflexivity.
  - destruct (has_prefix prefix s) eqn:E; [|reflexivity].
    apply has_prefix_true in E as [r ->]. zlia.
Qed.

Theorem lib_has_suffix_correct s suffix :
  lib_has_suffix s suffix = Some (go_has_suffix s suffix).
Proof.
  unfold lib_has_suffix, go_has_suffix.
  destruct suffix as [|x r].
  - cbn [length]. rewrite Nat.sub_0_r, skipn_all. reflexivity.
  - ztest (zlen (x :: r) =? 0)%Z false.
    destruct (Z.geb_spec (zlen s) (zlen (x :: r))) as [H|H].
    + rewrite tsh_sub_last by zlia.
      replace (length (x :: r) <=? length s)%nat with true by zlia. reflexivity.
    + replace (length (x :: r) <=? length s)%nat with false by zlia. reflexivity.
Qed.

Theorem lib_cut_prefix_correct s prefix :
  lib_cut_prefix s prefix = Some (go_cut_prefix s prefix).
Proof.
  unfold lib_cut_prefix, go_cut_prefix. rewrite lib_has_prefix_correct. unfold go_has_prefix.
  destruct (has_prefix prefix s) eqn:E.
  - apply has_prefix_true in E as [r ->]. rewrite tsh_sub_tail, strip_prefix_app by reflexivity. reflexivity.
  - rewrite (has_prefix_false_strip _ _ E). reflexivity.
Qed.

Theorem lib_cut_suffix_correct s suffix :
  lib_cut_suffix s suffix = Some (go_cut_suffix s suffix).
Proof.
  unfold lib_cut_suffix, go_cut_suffix. rewrite lib_has_suffix_correct.
  destruct (go_has_suffix s suffix) eqn:E; [|reflexivity].
  apply go_has_suffix_true in E as [a ->].
  rewrite (tsh_sub_cut [] a suffix), app_length, Nat.add_sub, firstn_app_length by (try reflexivity; zlia).
  reflexivity.
Qed.

Theorem lib_trim_prefix_correct s prefix :
  lib_trim_prefix s prefix = Some (go_trim_prefix s prefix).
Proof.
  unfold lib_trim_prefix, go_trim_prefix. rewrite lib_cut_prefix_correct.
  destruct (go_cut_prefix s prefix) as [r c]. reflexivity.
Qed.

Theorem lib_trim_suffix_correct s suffix :
  lib_trim_suffix s suffix = Some (go_trim_suffix s suffix).
Proof.
  unfold lib_trim_suffix, go_trim_suffix. rewrite lib_cut_suffix_correct.
  destruct (go_cut_suffix s suffix) as [r c]. reflexivity.
Qed.

Lemma repeat_loop_spec s count :
  forall (k fuel : nat) (i : Z) (new : bytes),
    k = Z.to_nat (count - i) -> (k < fuel)%nat ->
    repeat_loop fuel s count i new = Some (new ++ concat (repeat s k)).
Proof.
  induction k as [|k IH]; intros fuel i new Hk Hf;
    (destruct fuel as [|fuel]; [lia|]); cbn [repeat_loop repeat concat].
  - ztest (i <? count)%Z false. rewrite app_nil_r. reflexivity.
  - ztest (i <? count)%Z true. rewrite (IH fuel (i + 1)%Z), app_assoc by lia. reflexivity.
Qed.

(* also for a negative count (where Go panics): both sides are "" *)
Theorem lib_repeat_correct s count : lib_repeat s count = Some (go_repeat s count).
Proof. apply (repeat_loop_spec s count (Z.to_nat count) _ 0%Z []); lia. Qed.

Lemma slice_get_app (pre : list bytes) e rest i :
  i = Z.of_nat (length pre) -> slice_get (pre ++ e :: rest) i = Some e.
Proof.
  intros ->. unfold slice_get. ztest (Z.of_nat (length pre) <? 0)%Z false.
  rewrite Nat2Z.id, nth_error_app2, Nat.sub_diag by lia. reflexivity.
Qed.

Lemma join_cons sep e rest :
  join sep (e :: rest) = e ++ match rest with [] => [] | _ => sep ++ join sep rest end.
Proof. destruct rest; [symmetry; apply app_nil_r|reflexivity]. Qed.

Lemma join_loop_spec sep :
  forall (rest pre : list bytes) (fuel : nat) (l i : Z) (acc : bytes),
    (length rest < fuel)%nat -> i = Z.of_nat (length pre) -> l = (i + Z.of_nat (length rest))%Z ->
    join_loop fuel (pre ++ rest) sep l i acc = Some (acc ++ join sep rest).
Proof.
  induction rest as [|e rest IH]; intros pre fuel l i acc Hf Hi Hl;
    (destruct fuel as [|fuel]; [lia|]); cbn [join_loop length] in *.
  - ztest (i <? l)%Z false. rewrite app_nil_r. reflexivity.
  - ztest (i <? l)%Z true. rewrite slice_get_app by exact Hi. cbv iota beta zeta.
    change (e :: rest) with ([e] ++ rest) at 1. rewrite app_assoc, IH, join_cons by zlia.
    destruct rest as [|e2 rest]; cbn [length] in Hl.
    + ztest (i <? l - 1)%Z false. rewrite <- !app_assoc. reflexivity.
    + ztest (i <? l - 1)%Z true. rewrite <- !app_assoc. reflexivity.
Qed.

Theorem lib_join_correct elems sep :
  lib_join elems sep = Some (go_join elems sep).
Proof. exact (join_loop_spec sep elems [] (S (length elems)) _ 0%Z [] (Nat.lt_succ_diag_r _) eq_refl eq_refl). Qed.

Lemma has_prefix_nil s : has_prefix [] s = true.
Proof. reflexivity. Qed.

(* The inner loop compares substr[j:] with s[i+j:] and stops at the first
   difference; it gets to j = sul exactly when substr[j:] is a prefix there.
   [pre] is substr[:j] and [b] is s[:i+j]. *)
Lemma index_inner_spec :
  forall (p pre b t : bytes) (fuel : nat) (i j : Z),
    (length p < fuel)%nat -> j = zlen pre -> (i + j)%Z = zlen b ->
    option_map (fun j' => (j' =? zlen (pre ++ p))%Z) (index_inner fuel (b ++ t) (pre ++ p) (zlen (pre ++ p)) i j)
    = Some (has_prefix p t).
Proof.
  induction p as [|d p IH]; intros pre b t fuel i j Hf Hj Hb;
    (destruct fuel as [|fuel]; [lia|]); cbn [index_inner]; rewrite (before_end pre _ j Hj); cbv iota.
  - cbn [option_map]. ztest (j =? zlen (pre ++ []))%Z true. reflexivity.
  - rewrite (tsh_at_app b t), (tsh_at_app pre (d :: p)) by assumption. cbv iota beta.
    destruct t as [|c t]; cbn [firstn beq negb].
    + cbn [option_map]. ztest (j =? zlen (pre ++ d :: p))%Z false. reflexivity.
    + rewrite andb_true_r, has_prefix_cons. destruct (N.eqb_spec c d) as [->|Hcd]; cbn [negb andb].
      * rewrite <- (IH (pre ++ [d]) (b ++ [d]) t fuel i (j + 1)%Z), <- !app_assoc by zlia. reflexivity.
      * cbn [option_map]. ztest (j =? zlen (pre ++ d :: p))%Z false. reflexivity.
Qed.

Lemma index_outer_spec substr :
  substr <> [] ->
  forall (t a : bytes) (fuel : nat) (i : Z),
    (length t < fuel)%nat -> i = zlen a ->
    index_outer fuel (a ++ t) substr (zlen substr) i (-1)%Z
    = Some (match index_nat t substr with Some k => (i + Z.of_nat k)%Z | None => (-1)%Z end).
Proof.
  intros Hne. induction t as [|c t IH]; intros a fuel i Hf Hi;
    (destruct fuel as [|fuel]; [lia|]); cbn [index_outer index_nat]; rewrite (before_end a _ i Hi); cbv iota.
  - destruct substr; [congruence|reflexivity].
  - pose proof (index_inner_spec substr [] a (c :: t) _ i 0%Z (Nat.lt_succ_diag_r _) eq_refl ltac:(lia)) as H.
    cbn [app] in H. destruct (index_inner _ _ _ _ _ _) as [j'|]; [|discriminate]. injection H as ->.
    destruct (has_prefix substr (c :: t)).
    + f_equal. lia.
    + change (c :: t) with ([c] ++ t). rewrite app_assoc, IH by zlia.
      destruct (index_nat t substr); cbn [option_map]; f_equal; lia.
Qed.

Theorem lib_index_correct s substr :
  lib_index s substr = Some (go_index s substr).
Proof.
  unfold lib_index, go_index. destruct substr as [|d p]; [destruct s; reflexivity|].
  ztest (zlen (d :: p) =? 0)%Z false.
  rewrite (index_outer_spec (d :: p) ltac:(discriminate) s [] _ 0%Z (Nat.lt_succ_diag_r _) eq_refl
           : index_outer _ s _ _ _ _ = _).
  destruct (index_nat s (d :: p)); reflexivity.
Qed.

Theorem lib_contains_correct s substr :
  lib_contains s substr = Some (go_contains s substr).
Proof.
  unfold lib_contains, go_contains. rewrite lib_index_correct. unfold go_index.
  destruct (index_nat s substr) as [k|]; f_equal; lia.
Qed.

Theorem lib_cut_correct s sep :
  lib_cut s sep = Some (go_cut s sep).
Proof.
  unfold lib_cut, go_cut. rewrite lib_index_correct. unfold go_index. rewrite find_first_index.
  destruct (find_first sep s) as [[b a]|] eqn:E; cbn [option_map fst]; [|reflexivity].
  apply find_first_some in E as ->. ztest (Z.of_nat (length b) >=? 0)%Z true.
  rewrite (tsh_sub_cut [] b (sep ++ a)), (app_assoc b), tsh_sub_tail by (rewrite ?zlen_app; reflexivity).
  reflexivity.
Qed.

(* [pre] is s[:i].  Any bound [k] on the matches in the rest [t] that is at
   least len(t) gives the same count, so [k] is left open here and the jump
   behind a match can go on with k - 1. *)
Lemma count_loop_spec substr :
  substr <> [] ->
  forall (fuel : nat) (pre t : bytes) (i c : Z) (k : nat),
    (length t < fuel)%nat -> (length t <= k)%nat -> i = zlen pre ->
    count_loop fuel (pre ++ t) substr (zlen (pre ++ t)) (zlen substr) i c
    = Some (c + Z.of_nat (count_matches k substr t))%Z.
Proof.
  intros Hne. pose proof (pos_length _ Hne) as Hl.
  induction fuel as [|fuel IH]; intros pre t i c k Hf Hk Hi; [lia|]. cbn [count_loop].
  rewrite (before_end pre t i Hi). destruct t as [|x r]; cbv iota.
  - rewrite count_nil by exact Hne. f_equal. lia.
  - rewrite tsh_sub_tail, lib_has_prefix_correct by exact Hi. unfold go_has_prefix. cbv iota beta.
    destruct (has_prefix substr (x :: r)) eqn:E.
    + apply has_prefix_true in E as [a Ea]. rewrite Ea in *.
      destruct k as [|k]; [zlia|]. cbn [count_matches].
      rewrite find_first_app, app_assoc, (IH _ a _ _ k) by zlia. f_equal. lia.
    + rewrite (count_skip _ _ _ _ E). change (x :: r) with ([x] ++ r). rewrite app_assoc.
      apply IH; zlia.
Qed.

Theorem lib_count_correct s substr :
  lib_count s substr = Some (go_count s substr).
Proof.
  unfold lib_count, go_count. destruct substr as [|d p]; [reflexivity|].
  ztest (zlen (d :: p) =? 0)%Z false.
  exact (count_loop_spec (d :: p) ltac:(discriminate) (S (length s)) [] s 0%Z 0%Z (length s)
           (Nat.lt_succ_diag_r _) (Nat.le_refl _) eq_refl).
Qed.

(* CutPrefix with a one-byte prefix *)
Definition cut1 (c : N) (s : bytes) : bytes * bool :=
  match s with
  | x :: r => if x =? c then (r, true) else (s, false)
  | [] => ([], false)
  end.

(* one round of the inner loop over the bytes [cs] of the cutset *)
Fixpoint trim_pass (cs : bytes) (s : bytes) (tr : bool) : bytes * bool :=
  match cs with
  | [] => (s, tr)
  | c :: cs' => let '(s', cut) := cut1 c s in trim_pass cs' s' (if cut then true else tr)
  end.

Lemma cut1_spec c s :
  let '(r, b) := cut1 c s in if b then s = c :: r else r = s /\ hd_is c s = false.
Proof.
  unfold cut1. destruct s as [|x r]; [split; reflexivity|]. cbn [hd_is].
  destruct (N.eqb_spec x c) as [->|H]; [reflexivity|split; reflexivity].
Qed.

(* the last clause, for both flags at once: a pass never lengthens s, and shortens it when it raises the flag *)
Lemma trim_pass_spec cutset :
  forall (cs s : bytes) (tr : bool),
    (forall c, In c cs -> in_cutset cutset c = true) ->
    let '(r, b) := trim_pass cs s tr in
    drop_while (in_cutset cutset) r = drop_while (in_cutset cutset) s /\
    (b = false -> tr = false /\ r = s /\ forall c, In c cs -> hd_is c s = false) /\
    (length r + (if b then 1 else 0) <= length s + (if tr then 1 else 0))%nat.
Proof.
  induction cs as [|c cs IH]; intros s tr Hin; cbn [trim_pass].
  - split; [reflexivity|]. split; [|apply le_n]. intro H. repeat split; [exact H|intros c []].
  - pose proof (cut1_spec c s) as Hc. destruct (cut1 c s) as [s' cut].
    specialize (IH s' (if cut then true else tr) (fun c0 H => Hin c0 (or_intror H))).
    destruct (trim_pass cs s' (if cut then true else tr)) as [r b]. destruct IH as (I1 & I2 & I3).
    destruct cut.
    + subst s. cbn [drop_while length]. rewrite (Hin c (or_introl eq_refl)).
      split; [exact I1|]. split; [|lia]. intro Hb. destruct (I2 Hb) as [Ht _]. discriminate Ht.
    + destruct Hc as [-> Hh]. cbn [In]. split; [exact I1|]. split; [|exact I3].
      intro Hb. destruct (I2 Hb) as (Ht & Hr & Hcs). repeat split; [exact Ht|exact Hr|].
      intros c0 [<-|H0]; [exact Hh|exact (Hcs c0 H0)].
Qed.

Section TrimFacts.
  Variable cutfn : bytes -> bytes -> option (bytes * bool).
  Variable view : bytes -> bytes.
  Hypothesis view_invol : forall s, view (view s) = s.
  Hypothesis view_length : forall s, length (view s) = length s.
  Hypothesis cutfn_one :
    forall s c, cutfn s [c] = Some (let '(r, b) := cut1 c (view s) in (view r, b)).

  Lemma trim_inner_spec :
    forall (cs pre : bytes) (fuel : nat) (i : Z) (s : bytes) (tr : bool),
      (length cs < fuel)%nat -> i = zlen pre ->
      trim_inner cutfn fuel (pre ++ cs) (zlen (pre ++ cs)) i s tr
      = Some (let '(r, b) := trim_pass cs (view s) tr in (view r, b)).
  Proof.
    induction cs as [|c cs IH]; intros pre fuel i s tr Hf Hi;
      (destruct fuel as [|fuel]; [lia|]); cbn [trim_inner trim_pass]; rewrite (before_end pre _ i Hi); cbv iota.
    - rewrite view_invol. reflexivity.
    - rewrite tsh_at_app by exact Hi. cbn [firstn]. cbv iota beta. rewrite cutfn_one.
      destruct (cut1 c (view s)) as [r b]. cbv iota beta.
      change (c :: cs) with ([c] ++ cs). rewrite app_assoc, IH, view_invol by zlia. reflexivity.
  Qed.

  Lemma trim_outer_spec cutset :
    forall (fuel : nat) (s : bytes),
      (length s < fuel)%nat ->
      trim_outer cutfn fuel cutset (zlen cutset) s
      = Some (view (drop_while (in_cutset cutset) (view s))).
  Proof.
    induction fuel as [|fuel IH]; intros s Hf; [lia|]. cbn [trim_outer].
    rewrite (trim_inner_spec cutset [] _ 0%Z s false (Nat.lt_succ_diag_r _) eq_refl
             : trim_inner _ _ cutset (zlen cutset) _ _ _ = _).
    pose proof (trim_pass_spec cutset cutset (view s) false) as Hp.
    destruct (trim_pass cutset (view s) false) as [r b]. cbv iota beta.
    destruct Hp as [P1 [P2 P3]].
    { intros c Hc. unfold in_cutset. apply existsb_exists. exists c. split; [exact Hc|apply N.eqb_refl]. }
    destruct b; cbn [negb].
    - rewrite IH.
      + rewrite view_invol, P1. reflexivity.
      + rewrite view_length in *. lia.
    - destruct (P2 eq_refl) as [_ [Hr Hh]]. subst r.
      rewrite (drop_while_head_out _ _ Hh). reflexivity.
  Qed.

  Lemma trim_with_spec s cutset :
    trim_with cutfn s cutset = Some (view (drop_while (in_cutset cutset) (view s))).
  Proof.
    unfold trim_with. destruct s as [|x s]; [|destruct cutset as [|c cs]].
    - assert (Hv : view [] = []) by (apply length_zero_iff_nil, view_length).
      rewrite Hv. cbn [drop_while]. rewrite Hv. reflexivity.
    - rewrite andb_false_r, drop_while_head_out, view_invol by (intros c []). reflexivity.
    - ztest ((zlen (x :: s) >? 0) && (zlen (c :: cs) >? 0))%Z true. apply trim_outer_spec. lia.
  Qed.
End TrimFacts.

Lemma go_cut_prefix_one s c : go_cut_prefix s [c] = cut1 c s.
Proof.
  unfold go_cut_prefix, cut1. destruct s as [|x r]; [reflexivity|].
  cbn [strip_prefix]. rewrite (N.eqb_sym c x). destruct (x =? c); reflexivity.
Qed.

Theorem lib_trim_left_correct s cutset :
  lib_trim_left s cutset = Some (go_trim_left s cutset).
Proof.
  unfold lib_trim_left, go_trim_left.
  apply (trim_with_spec lib_cut_prefix (fun x => x)); try reflexivity.
  intros s0 c. rewrite lib_cut_prefix_correct, go_cut_prefix_one.
  destruct (cut1 c s0); reflexivity.
Qed.

Theorem lib_trim_right_correct s cutset :
  lib_trim_right s cutset = Some (go_trim_right s cutset).
Proof.
  unfold lib_trim_right, go_trim_right, drop_while_end.
  apply (trim_with_spec lib_cut_suffix (@rev N)).
  - apply rev_involutive.
  - apply rev_length.
  - intros s0 c. rewrite lib_cut_suffix_correct, go_cut_suffix_rev.
    change (rev [c]) with [c]. rewrite go_cut_prefix_one. reflexivity.
Qed.

Theorem lib_trim_correct s cutset :
  lib_trim s cutset = Some (go_trim s cutset).
Proof.
  unfold lib_trim, go_trim. rewrite lib_trim_left_correct. apply lib_trim_right_correct.
Qed.

Theorem lib_trim_space_correct s :
  lib_trim_space s = Some (go_trim_space s).
Proof.
  unfold lib_trim_space. rewrite lib_trim_correct.
  unfold go_trim, go_trim_space, go_trim_right, go_trim_left, drop_while_end.
  assert (H : forall c, in_cutset [9; 10; 11; 12; 13; 32] c = is_go_space c).
  { intros c. unfold in_cutset, is_go_space. cbn [existsb]. rewrite orb_false_r.
    rewrite !orb_assoc. reflexivity. }
  rewrite (drop_while_ext _ _ s H).
  rewrite (drop_while_ext _ _ (rev (drop_while is_go_space s)) H). reflexivity.
Qed.

(* what lib_replace does with the result of its loop *)
Definition replace_finish (s : bytes) (r : option (bytes * Z)) : option bytes :=
  match r with
  | Some (res, i) => match tsh_sub s i None with Some x => Some (res ++ x) | None => None end
  | None => None
  end.

(* The loop has made [rep] of [n] replacements and [m] bytes are left: the
   specification may go on with any bound [k] on the matches in the rest if
   n < 0, and with exactly the n - rep that are left otherwise. *)
Definition budget (n rep : Z) (m k : nat) : Prop :=
  ((n < 0)%Z /\ (m <= k)%nat) \/ ((0 <= n)%Z /\ k = Z.to_nat (n - rep)).

Lemma budget_test n rep m k :
  budget n rep (S m) k -> ((rep <? n) || (n <? 0))%Z = negb (k =? 0)%nat.
Proof. unfold budget. destruct k; cbn [Nat.eqb negb]; lia. Qed.

Lemma budget_used n rep m m' k :
  budget n rep (S m) (S k) -> (m' <= m)%nat -> budget n (rep + 1) m' k.
Proof. unfold budget. lia. Qed.

Lemma budget_kept n rep m k : budget n rep (S m) k -> budget n rep m k.
Proof. unfold budget. lia. Qed.

Lemma budget_start n m : budget n 0 m (if (n <? 0)%Z then S m else Z.to_nat n).
Proof. unfold budget. destruct (Z.ltb_spec n 0); lia. Qed.

(* what the loop still has to produce at the rest [t] of s when [k] replacements are left; for old = "" it puts
   [new] behind a byte, where the specification puts it in front of the next one *)
Definition replace_rest (k : nat) (old new t : bytes) : bytes :=
  match old with
  | [] => match t with [] => [] | c :: r => c :: replace_empty k new r end
  | _ => replace_matches k old new t
  end.

Lemma replace_loop_spec old new n :
  forall (fuel : nat) (pre t res : bytes) (rep i : Z) (k : nat),
    (length t < fuel)%nat -> budget n rep (length t) k -> i = zlen pre ->
    replace_finish (pre ++ t) (replace_loop fuel (pre ++ t) old new n (zlen old) res rep i)
    = Some (res ++ replace_rest k old new t).
Proof.
  induction fuel as [|fuel IH]; intros pre t res rep i k Hf Hk Hi; [lia|]. cbn [replace_loop].
  rewrite (before_end pre t i Hi). destruct t as [|c r]; cbn [andb]; cbv iota.
  - cbn [replace_finish]. rewrite tsh_sub_tail by exact Hi.
    destruct old; [reflexivity|]. cbn [replace_rest]. rewrite replace_matches_nil by discriminate. reflexivity.
  - cbn [length] in *. rewrite (budget_test _ _ _ _ Hk).
    destruct k as [|k]; cbn [Nat.eqb negb].
    + cbn [replace_finish]. rewrite tsh_sub_tail by exact Hi. destruct old; reflexivity.
    + rewrite tsh_at_app by exact Hi. cbn [firstn]. cbv iota beta. destruct old as [|d p].
      * change (zlen [] =? 0)%Z with true. cbv iota. change (c :: r) with ([c] ++ r).
        rewrite app_assoc, (IH _ r _ _ _ k) by (try apply (budget_used _ _ _ _ _ Hk); zlia).
        cbn [replace_rest replace_empty app]. rewrite <- !app_assoc. reflexivity.
      * ztest (zlen (d :: p) =? 0)%Z false.
        rewrite tsh_sub_tail, lib_has_prefix_correct by exact Hi. unfold go_has_prefix. cbv iota beta. cbn [replace_rest].
        destruct (has_prefix (d :: p) (c :: r)) eqn:E.
        -- apply has_prefix_true in E as [a Ea]. rewrite Ea. cbn [replace_matches].
           apply (f_equal (@length _)) in Ea.
           rewrite find_first_app, app_assoc, (IH _ a _ _ _ k), <- app_assoc
             by (try apply (budget_used _ _ _ _ _ Hk); zlia).
           reflexivity.
        -- rewrite (replace_skip _ _ _ _ _ E). change (c :: r) with ([c] ++ r) at 1 2.
           rewrite app_assoc, (IH _ r _ _ _ (S k)), <- app_assoc by (try apply (budget_kept _ _ _ _ Hk); zlia).
           reflexivity.
Qed.

Theorem lib_replace_correct s old new n :
  lib_replace s old new n = Some (go_replace s old new n).
Proof.
  unfold lib_replace, go_replace. cbv zeta. pose proof (budget_start n (length s)) as Hk.
  destruct old as [|d p].
  - change (zlen [] =? 0)%Z with true. cbn [andb].
    destruct (Z.eqb_spec n 0) as [->|Hn]; cbn [negb]; cbv iota beta.
    + refine (eq_trans (replace_loop_spec [] new 0 _ [] s [] 0 0 0 (Nat.lt_succ_diag_r _) Hk eq_refl) _).
      destruct s; reflexivity.
    + (* the first replacement is made in front of the loop *)
      set (k := if (n <? 0)%Z then length s else Z.to_nat (n - 1)).
      replace (if (n <? 0)%Z then S (length s) else Z.to_nat n) with (S k) by (subst k; destruct (n <? 0)%Z eqn:E; lia).
      refine (replace_loop_spec [] new n _ [] s new 1 0 k (Nat.lt_succ_diag_r _) _ eq_refl).
      unfold budget. subst k. destruct (n <? 0)%Z eqn:E; lia.
  - ztest (zlen (d :: p) =? 0)%Z false.
    exact (replace_loop_spec (d :: p) new n _ [] s [] 0 0 _ (Nat.lt_succ_diag_r _) Hk eq_refl).
Qed.

Theorem lib_replace_all_correct s old new :
  lib_replace_all s old new = Some (go_replace_all s old new).
Proof. apply lib_replace_correct. Qed.

Lemma slice_set_append (elems : list bytes) i v :
  i = Z.of_nat (length elems) -> slice_set elems i v = Some (elems ++ [v]).
Proof.
  intros ->. unfold slice_set. ztest (Z.of_nat (length elems) <? 0)%Z false.
  rewrite Nat2Z.id, Nat.ltb_irrefl, Nat.sub_diag. reflexivity.
Qed.

(* sep = "": one element per byte.  [pre] is s[:endI]; startI, endI and
   elIndex are all len(pre), [e] stands for the first two. *)
Lemma split_loop_empty :
  forall (fuel : nat) (pre t : bytes) (e x : Z) (elems : list bytes),
    (S (length t) < fuel)%nat -> e = zlen pre -> x = Z.of_nat (length elems) ->
    exists a' x' : Z,
      split_loop fuel (pre ++ t) [] 0%Z (zlen (pre ++ t)) e e x elems
      = Some (a', x', elems ++ map (fun c => [c]) t).
Proof.
  induction fuel as [|fuel IH]; intros pre t e x elems Hf He Hx; [lia|]. cbn [split_loop].
  ztest (e <=? zlen (pre ++ t))%Z true.
  rewrite (tsh_sub_firstn pre t e _ 0) by lia. cbn [firstn beq]. cbv iota beta.
  change (0 =? 0)%Z with true. cbv iota. cbn [negb orb].
  destruct t as [|c r].
  - ztest (e + 1 <=? zlen (pre ++ []))%Z false.
    destruct fuel as [|fuel]; [cbn [length] in Hf; lia|]. cbn [split_loop].
    ztest (e + 1 <=? zlen (pre ++ []))%Z false.
    eexists _, _. rewrite app_nil_r. reflexivity.
  - ztest (e + 1 <=? zlen (pre ++ c :: r))%Z true.
    rewrite (tsh_sub_firstn pre _ e _ 1), slice_set_append by lia. cbn [firstn]. cbv iota beta.
    destruct (IH (pre ++ [c]) r (e + 1 + 0)%Z (x + 1)%Z (elems ++ [[c]])) as [a' [x' H]]; [zlia..|].
    rewrite <- !app_assoc in H. exists a', x'. exact H.
Qed.

(* what lib_split does with the result of its loop when sep is not empty *)
Definition split_finish (s : bytes) (r : option (Z * Z * list bytes)) : option (list bytes) :=
  match r with
  | Some (startI, elIndex, elems) =>
      match tsh_sub s startI None with
      | Some y => match slice_set elems elIndex y with Some e => Some e | None => None end
      | None => None
      end
  | None => None
  end.

(* s = done ++ u ++ t: [done] is s[:startI], [u] is s[startI:endI], the
   element under way, in which no occurrence of sep starts. *)
Lemma split_loop_nonempty sep :
  sep <> [] ->
  forall (fuel : nat) (done u t : bytes) (elems : list bytes) (k : nat) (a e x : Z),
    (length t < fuel)%nat -> (length t <= k)%nat ->
    a = zlen done -> e = (a + zlen u)%Z -> x = Z.of_nat (length elems) ->
    split_finish (done ++ u ++ t)
      (split_loop fuel (done ++ u ++ t) sep (zlen sep) (zlen (done ++ u ++ t) - zlen sep)%Z a e x elems)
    = Some (elems ++ glue u (split_matches k sep t)).
Proof.
  intros Hne. pose proof (pos_length _ Hne) as Hl.
  induction fuel as [|fuel IH]; intros done u t elems k a e x Hf Hk Ha He Hx; [lia|]. cbn [split_loop].
  destruct (Z.leb_spec e (zlen (done ++ u ++ t) - zlen sep)) as [Hb|Hb].
  - (* a separator still fits *)
    rewrite (app_assoc done u t), (tsh_sub_firstn (done ++ u) t e _ (length sep)), <- has_prefix_firstn, <- app_assoc
      by zlia.
    destruct (has_prefix sep t) eqn:E.
    + apply has_prefix_true in E as [r ->]. ztest (zlen sep =? 0)%Z false. cbn [negb orb].
      rewrite (tsh_sub_cut done u), slice_set_append by assumption. cbv iota beta.
      destruct k as [|k]; [zlia|]. cbn [split_matches]. rewrite find_first_app. cbn [glue].
      replace (done ++ u ++ sep ++ r) with ((done ++ u ++ sep) ++ [] ++ r) by (rewrite <- !app_assoc; reflexivity).
      rewrite (IH _ [] r _ k), glue_nil_split, app_nil_r, <- app_assoc by zlia. reflexivity.
    + destruct t as [|c r]; [zlia|].
      replace (done ++ u ++ c :: r) with (done ++ (u ++ [c]) ++ r) by (rewrite <- app_assoc; reflexivity).
      rewrite (IH _ (u ++ [c]) r _ k), (split_skip _ _ _ _ E), glue_glue by zlia. reflexivity.
  - (* no separator fits any more *)
    cbn [split_finish]. rewrite tsh_sub_tail, slice_set_append, split_short by (assumption || zlia).
    reflexivity.
Qed.

Theorem lib_split_correct s sep :
  lib_split s sep = Some (go_split s sep).
Proof.
  unfold lib_split, go_split. cbv zeta.
  destruct sep as [|d p]; (destruct s as [|c s]; [|ztest (zlen (c :: s) >? 0)%Z true]).
  - reflexivity.
  - destruct (split_loop_empty _ [] (c :: s) 0 0 [] (Nat.lt_succ_diag_r _) eq_refl eq_refl)
      as [a' [x' H]].
    cbn [app] in H. change (zlen []) with 0%Z. rewrite Z.sub_0_r, H. reflexivity.
  - (* the loop looks once at position 0 *)
    cbn [length split_loop]. change (0 <=? 0)%Z with true. cbv iota.
    rewrite (tsh_sub_firstn [] [] 0 _ (length (d :: p))), firstn_nil by reflexivity. reflexivity.
  - rewrite <- (glue_nil_split (length (c :: s))).
    exact (split_loop_nonempty (d :: p) ltac:(discriminate) _ [] [] (c :: s) [] _ 0 0 0
             (Nat.lt_lt_succ_r _ _ (Nat.lt_succ_diag_r _)) (Nat.le_refl _) eq_refl eq_refl eq_refl).
Qed.

(* Both sides evaluated: the right-hand values are what the real Go functions print for these arguments. *)

Example ex_index :
  lib_index (bs "chicken") (bs "ken") = Some 4%Z /\ go_index (bs "chicken") (bs "ken") = 4%Z /\
  lib_index (bs "ab") (bs "bc") = Some (-1)%Z /\ go_index (bs "ab") (bs "bc") = (-1)%Z /\
  lib_index [] [] = Some 0%Z /\ go_index [] [] = 0%Z.
Proof. vm_compute. repeat split; reflexivity. Qed.

Example ex_contains :
  lib_contains (bs "seafood") (bs "foo") = Some true /\ go_contains (bs "seafood") (bs "foo") = true /\
  lib_contains (bs "seafood") (bs "bar") = Some false /\ go_contains (bs "seafood") (bs "bar") = false /\
  lib_contains [] [] = Some true /\ go_contains [] [] = true.
Proof. vm_compute. repeat split; reflexivity. Qed.

Example ex_join :
  lib_join [bs "foo"; bs "bar"; bs "baz"] (bs ", ") = Some (bs "foo, bar, baz") /\
  go_join [bs "foo"; bs "bar"; bs "baz"] (bs ", ") = bs "foo, bar, baz" /\
  lib_join [] (bs ",") = Some [] /\ go_join [] (bs ",") = [].
Proof. vm_compute. repeat split; reflexivity. Qed.

Example ex_has_prefix :
  lib_has_prefix (bs "Gopher") (bs "Go") = Some true /\ go_has_prefix (bs "Gopher") (bs "Go") = true /\
  lib_has_prefix (bs "Gopher") (bs "C") = Some false /\ go_has_prefix (bs "Gopher") (bs "C") = false /\
  lib_has_prefix (bs "Go") (bs "Gopher") = Some false /\ go_has_prefix (bs "Go") (bs "Gopher") = false.
Proof. vm_compute. repeat split; reflexivity. Qed.

Example ex_has_suffix :
  lib_has_suffix (bs "Amigo") (bs "go") = Some true /\ go_has_suffix (bs "Amigo") (bs "go") = true /\
  lib_has_suffix (bs "Amigo") (bs "Ami") = Some false /\ go_has_suffix (bs "Amigo") (bs "Ami") = false /\
  lib_has_suffix (bs "Amigo") [] = Some true /\ go_has_suffix (bs "Amigo") [] = true.
Proof. vm_compute. repeat split; reflexivity. Qed.

Example ex_count :
  lib_count (bs "cheese") (bs "e") = Some 3%Z /\ go_count (bs "cheese") (bs "e") = 3%Z /\
  lib_count (bs "five") [] = Some 5%Z /\ go_count (bs "five") [] = 5%Z /\
  lib_count (bs "aaaaa") (bs "aa") = Some 2%Z /\ go_count (bs "aaaaa") (bs "aa") = 2%Z.
Proof. vm_compute. repeat split; reflexivity. Qed.

Example ex_split :
  lib_split (bs "a,b,c") (bs ",") = Some [bs "a"; bs "b"; bs "c"] /\
  go_split (bs "a,b,c") (bs ",") = [bs "a"; bs "b"; bs "c"] /\
  lib_split (bs "a man a plan a canal panama") (bs "a ") =
    Some [[]; bs "man "; bs "plan "; bs "canal panama"] /\
  go_split (bs "a man a plan a canal panama") (bs "a ") =
    [[]; bs "man "; bs "plan "; bs "canal panama"] /\
  lib_split (bs " xyz ") [] = Some [bs " "; bs "x"; bs "y"; bs "z"; bs " "] /\
  go_split (bs " xyz ") [] = [bs " "; bs "x"; bs "y"; bs "z"; bs " "] /\
  lib_split [] (bs "Bernardo O'Higgins") = Some [[]] /\ go_split [] (bs "Bernardo O'Higgins") = [[]] /\
  lib_split (bs "abab") (bs "ab") = Some [[]; []; []] /\ go_split (bs "abab") (bs "ab") = [[]; []; []] /\
  lib_split [] [] = Some [] /\ go_split [] [] = [].
Proof. vm_compute. repeat split; reflexivity. Qed.

Example ex_repeat :
  lib_repeat (bs "na") 2 = Some (bs "nana") /\ go_repeat (bs "na") 2 = bs "nana" /\
  lib_repeat (bs "na") 0 = Some [] /\ go_repeat (bs "na") 0 = [].
Proof. vm_compute. repeat split; reflexivity. Qed.

Example ex_replace :
  lib_replace (bs "oink oink oink") (bs "k") (bs "ky") 2 = Some (bs "oinky oinky oink") /\
  go_replace (bs "oink oink oink") (bs "k") (bs "ky") 2 = bs "oinky oinky oink" /\
  lib_replace (bs "oink oink oink") (bs "oink") (bs "moo") (-1) = Some (bs "moo moo moo") /\
  go_replace (bs "oink oink oink") (bs "oink") (bs "moo") (-1) = bs "moo moo moo" /\
  lib_replace (bs "ab") [] (bs "-") (-1) = Some (bs "-a-b-") /\ go_replace (bs "ab") [] (bs "-") (-1) = bs "-a-b-" /\
  lib_replace (bs "ab") [] (bs "-") 2 = Some (bs "-a-b") /\ go_replace (bs "ab") [] (bs "-") 2 = bs "-a-b" /\
  lib_replace (bs "ab") [] (bs "-") 0 = Some (bs "ab") /\ go_replace (bs "ab") [] (bs "-") 0 = bs "ab" /\
  lib_replace (bs "aaaa") (bs "aa") (bs "b") (-1) = Some (bs "bb") /\ go_replace (bs "aaaa") (bs "aa") (bs "b") (-1) = bs "bb".
Proof. vm_compute. repeat split; reflexivity. Qed.

Example ex_replace_all :
  lib_replace_all (bs "oink oink oink") (bs "oink") (bs "moo") = Some (bs "moo moo moo") /\
  go_replace_all (bs "oink oink oink") (bs "oink") (bs "moo") = bs "moo moo moo".
Proof. vm_compute. repeat split; reflexivity. Qed.

Example ex_cut :
  lib_cut (bs "Gopher") (bs "ph") = Some (bs "Go", bs "er", true) /\ go_cut (bs "Gopher") (bs "ph") = (bs "Go", bs "er", true) /\
  lib_cut (bs "Gopher") (bs "Badger") = Some (bs "Gopher", [], false) /\ go_cut (bs "Gopher") (bs "Badger") = (bs "Gopher", [], false) /\
  lib_cut [] [] = Some ([], [], true) /\ go_cut [] [] = ([], [], true).
Proof. vm_compute. repeat split; reflexivity. Qed.

Example ex_cut_prefix :
  lib_cut_prefix (bs "Gopher") (bs "Go") = Some (bs "pher", true) /\ go_cut_prefix (bs "Gopher") (bs "Go") = (bs "pher", true) /\
  lib_cut_prefix (bs "Gopher") (bs "ph") = Some (bs "Gopher", false) /\ go_cut_prefix (bs "Gopher") (bs "ph") = (bs "Gopher", false).
Proof. vm_compute. repeat split; reflexivity. Qed.

Example ex_cut_suffix :
  lib_cut_suffix (bs "Gopher") (bs "er") = Some (bs "Goph", true) /\ go_cut_suffix (bs "Gopher") (bs "er") = (bs "Goph", true) /\
  lib_cut_suffix (bs "Gopher") (bs "Go") = Some (bs "Gopher", false) /\ go_cut_suffix (bs "Gopher") (bs "Go") = (bs "Gopher", false).
Proof. vm_compute. repeat split; reflexivity. Qed.

Example ex_trim_prefix_suffix :
  lib_trim_prefix (bs "xxhixx") (bs "xx") = Some (bs "hixx") /\ go_trim_prefix (bs "xxhixx") (bs "xx") = bs "hixx" /\
  lib_trim_suffix (bs "xxhixx") (bs "xx") = Some (bs "xxhi") /\ go_trim_suffix (bs "xxhixx") (bs "xx") = bs "xxhi".
Proof. vm_compute. repeat split; reflexivity. Qed.

Example ex_trim :
  lib_trim_left (bs "!!Hello, Gophers!!") (bs "!") = Some (bs "Hello, Gophers!!") /\
  go_trim_left (bs "!!Hello, Gophers!!") (bs "!") = bs "Hello, Gophers!!" /\
  lib_trim_right (bs "!!Hello, Gophers!!") (bs "!") = Some (bs "!!Hello, Gophers") /\
  go_trim_right (bs "!!Hello, Gophers!!") (bs "!") = bs "!!Hello, Gophers" /\
  lib_trim (bs "abcba") (bs "ba") = Some (bs "c") /\ go_trim (bs "abcba") (bs "ba") = bs "c" /\
  lib_trim_space [32; 9; 10; 72; 105; 32; 33; 13; 10; 11; 12] = Some [72; 105; 32; 33] /\
  go_trim_space [32; 9; 10; 72; 105; 32; 33; 13; 10; 11; 12] = [72; 105; 32; 33].
Proof. vm_compute. repeat split; reflexivity. Qed.

Print Assumptions lib_index_correct.
Print Assumptions lib_contains_correct.
Print Assumptions lib_join_correct.
Print Assumptions lib_has_prefix_correct.
Print Assumptions lib_has_suffix_correct.
Print Assumptions lib_count_correct.
Print Assumptions lib_split_correct.
Print Assumptions lib_repeat_correct.
Print Assumptions lib_replace_correct.
Print Assumptions lib_replace_all_correct.
Print Assumptions lib_cut_correct.
Print Assumptions lib_cut_prefix_correct.
Print Assumptions lib_cut_suffix_correct.
Print Assumptions lib_trim_prefix_correct.
Print Assumptions lib_trim_suffix_correct.
Print Assumptions lib_trim_left_correct.
Print Assumptions lib_trim_right_correct.
Print Assumptions lib_trim_correct.
Print Assumptions lib_trim_space_correct.
