(* C15 -- SPECIFICATION of the functions of Go's package [strings] that
   TypeShell's bundled std/strings.tsh re-implements, over ASCII byte strings.

   Strings are [bytes] (lists of N, see Base/Bytestr.v), []string is
   [list bytes], int is Z, multiple results are tuples.

   Everything here is meant to be read against the Go documentation / the Go
   source (strings/strings.go), not against TypeShell.  For ASCII input a
   "UTF-8 sequence" / "Unicode code point" of the Go documentation is one byte.
   The values of these definitions were compared with the real Go functions
   on some 40 000 small inputs (see NOTES.md, "validation").

   The three scanning functions Count, Split, Replace follow Go's own
   implementation: find the leftmost occurrence with Index, consume it,
   continue behind it ([find_first]).  The recursion behind a match is not
   structural, so they carry a counter; its initial value is justified where
   it is chosen. *)
From Verif Require Import Base.Bytestr Base.ListFacts.
From Coq Require Import ZArith.

Definition zlen (s : bytes) : Z := Z.of_nat (length s).

(* ------------------------------------------------------------------ *)
(* HasPrefix, HasSuffix                                                 *)

(* func HasPrefix(s, prefix string) bool
     return len(s) >= len(prefix) && s[:len(prefix)] == prefix *)
Definition go_has_prefix (s prefix : bytes) : bool := has_prefix prefix s.

(* func HasSuffix(s, suffix string) bool
     return len(s) >= len(suffix) && s[len(s)-len(suffix):] == suffix *)
Definition go_has_suffix (s suffix : bytes) : bool :=
  (length suffix <=? length s)%nat && beq (skipn (length s - length suffix) s) suffix.

(* ------------------------------------------------------------------ *)
(* Index, Contains                                                      *)

(* "Index returns the index of the first instance of substr in s, or -1 if
   substr is not present in s."  Position 0 is tried first, then the same
   question for the tail, one further to the right. *)
Fixpoint index_nat (s substr : bytes) : option nat :=
  if has_prefix substr s then Some O
  else match s with
       | [] => None
       | _ :: r => option_map S (index_nat r substr)
       end.

Definition go_index (s substr : bytes) : Z :=
  match index_nat s substr with Some i => Z.of_nat i | None => (-1)%Z end.

(* func Contains(s, substr string) bool { return Index(s, substr) >= 0 } *)
Definition go_contains (s substr : bytes) : bool :=
  match index_nat s substr with Some _ => true | None => false end.

(* The leftmost occurrence of [sub] in [s], as the text before it and the
   text behind it:  s = before ++ sub ++ after. *)
Fixpoint find_first (sub s : bytes) : option (bytes * bytes) :=
  match strip_prefix sub s with
  | Some after => Some ([], after)
  | None =>
      match s with
      | [] => None
      | c :: r =>
          match find_first sub r with
          | Some (before, after) => Some (c :: before, after)
          | None => None
          end
      end
  end.

(* ------------------------------------------------------------------ *)
(* Join, Repeat                                                         *)

(* "Join concatenates the elements of its first argument to create a single
   string. The separator string sep is placed between elements." *)
Definition go_join (elems : list bytes) (sep : bytes) : bytes := join sep elems.

(* "Repeat returns a new string consisting of count copies of the string s.
   It panics if count is negative": only meaningful for 0 <= count. *)
Definition go_repeat (s : bytes) (count : Z) : bytes :=
  concat (repeat s (Z.to_nat count)).

(* ------------------------------------------------------------------ *)
(* Count                                                                *)

(* "Count counts the number of non-overlapping instances of substr in s.
   If substr is an empty string, Count returns 1 + the number of Unicode code
   points in s."
   Go:  for { i := Index(s, substr); if i == -1 { return n }; n++; s = s[i+len(substr):] }
   [k] bounds the number of matches still possible. *)
Fixpoint count_matches (k : nat) (sub s : bytes) : nat :=
  match k with
  | O => O
  | S k' =>
      match find_first sub s with
      | None => O
      | Some (_, after) => S (count_matches k' sub after)
      end
  end.

(* a non-empty [substr] cannot occur more than [length s] times *)
Definition go_count (s substr : bytes) : Z :=
  match substr with
  | [] => (zlen s + 1)%Z
  | _ :: _ => Z.of_nat (count_matches (length s) substr s)
  end.

(* ------------------------------------------------------------------ *)
(* Split                                                                *)

(* "Split slices s into all substrings separated by sep and returns a slice of
   the substrings between those separators.
   If s does not contain sep and sep is not empty, Split returns a slice of
   length 1 whose only element is s.
   If sep is empty, Split splits after each UTF-8 sequence.  If both s and sep
   are empty, Split returns an empty slice."
   Go (genericSplit with n < 0, sep <> ""):
     for i < n { m := Index(s, sep); if m < 0 { break }; a[i] = s[:m]; s = s[m+len(sep):]; i++ }
     a[i] = s *)
Fixpoint split_matches (k : nat) (sep s : bytes) : list bytes :=
  match k with
  | O => [s]
  | S k' =>
      match find_first sep s with
      | None => [s]
      | Some (before, after) => before :: split_matches k' sep after
      end
  end.

(* With a non-empty [sep] every match consumes a byte, so after [length s]
   matches nothing is left to search. *)
Definition go_split (s sep : bytes) : list bytes :=
  match sep with
  | [] => map (fun c => [c]) s          (* explode; [] for the empty string *)
  | _ :: _ => split_matches (length s) sep s
  end.

(* ------------------------------------------------------------------ *)
(* Replace, ReplaceAll                                                  *)

(* "Replace returns a copy of the string s with the first n non-overlapping
   instances of old replaced by new.  If old is empty, it matches at the
   beginning of the string and after each UTF-8 sequence, yielding up to k+1
   replacements for a k-rune string.  If n < 0, there is no limit on the
   number of replacements." *)

(* [old] non-empty: at most [k] replacements, left to right *)
Fixpoint replace_matches (k : nat) (old new s : bytes) : bytes :=
  match k with
  | O => s
  | S k' =>
      match find_first old s with
      | None => s
      | Some (before, after) => before ++ new ++ replace_matches k' old new after
      end
  end.

(* [old] empty: [new] goes in front of the string and behind every byte, as long
   as the budget [k] lasts *)
Fixpoint replace_empty (k : nat) (new s : bytes) : bytes :=
  match k with
  | O => s
  | S k' =>
      new ++ match s with
             | [] => []
             | c :: r => c :: replace_empty k' new r
             end
  end.

(* There are never more than [length s + 1] places to replace, so that number
   stands for "no limit". *)
Definition go_replace (s old new : bytes) (n : Z) : bytes :=
  let k := if (n <? 0)%Z then S (length s) else Z.to_nat n in
  match old with
  | [] => replace_empty k new s
  | _ :: _ => replace_matches k old new s
  end.

(* func ReplaceAll(s, old, new string) string { return Replace(s, old, new, -1) } *)
Definition go_replace_all (s old new : bytes) : bytes := go_replace s old new (-1)%Z.

(* ------------------------------------------------------------------ *)
(* Cut, CutPrefix, CutSuffix, TrimPrefix, TrimSuffix                    *)

(* "Cut slices s around the first instance of sep, returning the text before
   and after sep. The found result reports whether sep appears in s. If sep
   does not appear in s, cut returns s, "", false." *)
Definition go_cut (s sep : bytes) : bytes * bytes * bool :=
  match find_first sep s with
  | Some (before, after) => (before, after, true)
  | None => (s, [], false)
  end.

(* "CutPrefix returns s without the provided leading prefix string and reports
   whether it found the prefix. If s doesn't start with prefix, CutPrefix
   returns s, false. If prefix is the empty string, CutPrefix returns s, true." *)
Definition go_cut_prefix (s prefix : bytes) : bytes * bool :=
  match strip_prefix prefix s with
  | Some rest => (rest, true)
  | None => (s, false)
  end.

(* func CutSuffix: if !HasSuffix(s, suffix) { return s, false }
                   return s[:len(s)-len(suffix)], true *)
Definition go_cut_suffix (s suffix : bytes) : bytes * bool :=
  if go_has_suffix s suffix then (firstn (length s - length suffix) s, true)
  else (s, false).

(* "TrimPrefix returns s without the provided leading prefix string. If s
   doesn't start with prefix, s is returned unchanged."  Same for the suffix. *)
Definition go_trim_prefix (s prefix : bytes) : bytes := fst (go_cut_prefix s prefix).
Definition go_trim_suffix (s suffix : bytes) : bytes := fst (go_cut_suffix s suffix).

(* ------------------------------------------------------------------ *)
(* TrimLeft, TrimRight, Trim, TrimSpace                                 *)

Fixpoint drop_while (p : N -> bool) (s : bytes) : bytes :=
  match s with
  | [] => []
  | c :: r => if p c then drop_while p r else s
  end.

Definition drop_while_end (p : N -> bool) (s : bytes) : bytes :=
  rev (drop_while p (rev s)).

(* membership of a byte in a cutset *)
Definition in_cutset (cutset : bytes) (c : N) : bool := existsb (N.eqb c) cutset.

(* "TrimLeft returns a slice of the string s with all leading Unicode code
   points contained in cutset removed."  TrimRight: trailing.  Trim: both. *)
Definition go_trim_left (s cutset : bytes) : bytes := drop_while (in_cutset cutset) s.
Definition go_trim_right (s cutset : bytes) : bytes := drop_while_end (in_cutset cutset) s.
Definition go_trim (s cutset : bytes) : bytes :=
  go_trim_right (go_trim_left s cutset) cutset.

(* "TrimSpace returns a slice of the string s, with all leading and trailing
   white space removed, as defined by Unicode."  For ASCII bytes Go's table is
     var asciiSpace = [256]uint8{'\t': 1, '\n': 1, '\v': 1, '\f': 1, '\r': 1, ' ': 1} *)
Definition is_go_space (c : N) : bool :=
  (c =? 9) || (c =? 10) || (c =? 11) || (c =? 12) || (c =? 13) || (c =? 32).

Definition go_trim_space (s : bytes) : bytes :=
  drop_while_end is_go_space (drop_while is_go_space s).

(* The auxiliary definitions mean what their comments say. *)

(* find_first really cuts around an occurrence ... *)
Lemma find_first_some sub s b a :
  find_first sub s = Some (b, a) -> s = b ++ sub ++ a.
Proof.
  revert b a. induction s as [|c r IH]; intros b a H; cbn [find_first] in H.
  - destruct (strip_prefix sub []) as [x|] eqn:E; [|discriminate].
    inversion H; subst. apply strip_prefix_some in E. exact E.
  - destruct (strip_prefix sub (c :: r)) as [x|] eqn:E.
    + inversion H; subst. apply strip_prefix_some in E. exact E.
    + destruct (find_first sub r) as [[b' a']|] eqn:F; [|discriminate].
      inversion H; subst. cbn [app]. f_equal. apply IH. reflexivity.
Qed.

(* ... the leftmost one, the one Index reports ... *)
Lemma find_first_index sub s :
  index_nat s sub = option_map (fun ba => length (fst ba)) (find_first sub s).
Proof.
  induction s as [|c r IH]; cbn [index_nat find_first]; unfold has_prefix.
  - destruct (strip_prefix sub []); reflexivity.
  - destruct (strip_prefix sub (c :: r)); [reflexivity|].
    rewrite IH. destruct (find_first sub r) as [[b a]|]; reflexivity.
Qed.

(* ... and Index returns a position where substr occurs, no earlier one does. *)
Lemma index_nat_some s sub i :
  index_nat s sub = Some i ->
  has_prefix sub (skipn i s) = true /\
  forall j, (j < i)%nat -> has_prefix sub (skipn j s) = false.
Proof.
  revert i. induction s as [|c r IH]; intros i H; cbn [index_nat] in H.
  - destruct (has_prefix sub []) eqn:E; [|discriminate]. inversion H; subst.
    split; [exact E|]. intros j Hj. lia.
  - destruct (has_prefix sub (c :: r)) eqn:E.
    + inversion H; subst. split; [exact E|]. intros j Hj. lia.
    + destruct (index_nat r sub) as [i'|] eqn:F; [|discriminate].
      cbn [option_map] in H. inversion H; subst.
      destruct (IH i' eq_refl) as [H1 H2]. split; [exact H1|].
      intros [|j] Hj; [exact E|]. apply H2. lia.
Qed.

Lemma index_nat_none s sub :
  index_nat s sub = None -> forall j, has_prefix sub (skipn j s) = false.
Proof.
  induction s as [|c r IH]; intros H j; cbn [index_nat] in H.
  - destruct (has_prefix sub []) eqn:E; [discriminate|]. destruct j; exact E.
  - destruct (has_prefix sub (c :: r)) eqn:E; [discriminate|].
    destruct (index_nat r sub) as [i'|] eqn:F; [discriminate|].
    destruct j as [|j]; [exact E|]. apply IH. reflexivity.
Qed.

(* One position of a scan: the text starts with [sub], or else the head is passed over (or nothing is left),
   for find_first and for the three functions that iterate it. *)
Lemma find_first_app sub a : find_first sub (sub ++ a) = Some ([], a).
Proof. destruct (sub ++ a) eqn:E; cbn [find_first]; rewrite <- E, strip_prefix_app; reflexivity. Qed.

Lemma find_first_skip sub c r :
  has_prefix sub (c :: r) = false ->
  find_first sub (c :: r) =
  match find_first sub r with Some (b, a) => Some (c :: b, a) | None => None end.
Proof. intros H. apply has_prefix_false_strip in H. cbn [find_first]. rewrite H. reflexivity. Qed.

Lemma find_first_nil sub : sub <> [] -> find_first sub [] = None.
Proof. intros H. destruct sub as [|d p]; [congruence|reflexivity]. Qed.

Lemma count_nil k sub : sub <> [] -> count_matches k sub [] = O.
Proof. intros H. destruct k; [reflexivity|]. cbn [count_matches]. rewrite find_first_nil by exact H. reflexivity. Qed.

Lemma count_skip k sub x r :
  has_prefix sub (x :: r) = false -> count_matches k sub (x :: r) = count_matches k sub r.
Proof.
  intros E. destruct k as [|k]; [reflexivity|]. cbn [count_matches].
  rewrite (find_first_skip _ _ _ E). destruct (find_first sub r) as [[b a]|]; reflexivity.
Qed.

Lemma replace_matches_nil k old new : old <> [] -> replace_matches k old new [] = [].
Proof.
  intros H. destruct k as [|k]; [reflexivity|]. cbn [replace_matches].
  rewrite find_first_nil by exact H. reflexivity.
Qed.

Lemma replace_skip k old new c r :
  has_prefix old (c :: r) = false ->
  replace_matches k old new (c :: r) = c :: replace_matches k old new r.
Proof.
  intros E. destruct k as [|k]; [reflexivity|]. cbn [replace_matches].
  rewrite (find_first_skip _ _ _ E). destruct (find_first old r) as [[b a]|]; reflexivity.
Qed.

(* [u] in front of the first element: a byte passed over goes to the element under way *)
Definition glue (u : bytes) (l : list bytes) : list bytes :=
  match l with h :: r => (u ++ h) :: r | [] => [u] end.

Lemma glue_glue u v l : glue u (glue v l) = glue (u ++ v) l.
Proof. destruct l; cbn [glue]; rewrite <- ?app_assoc; reflexivity. Qed.

Lemma glue_nil_split k sep t : glue [] (split_matches k sep t) = split_matches k sep t.
Proof. destruct k; [reflexivity|]. cbn [split_matches]. destruct (find_first sep t) as [[b a]|]; reflexivity. Qed.

Lemma split_skip k sep c r :
  has_prefix sep (c :: r) = false ->
  split_matches k sep (c :: r) = glue [c] (split_matches k sep r).
Proof.
  intros E. destruct k as [|k]; [reflexivity|]. cbn [split_matches].
  rewrite (find_first_skip _ _ _ E). destruct (find_first sep r) as [[b a]|]; reflexivity.
Qed.

Lemma split_short k sep t : (length t < length sep)%nat -> split_matches k sep t = [t].
Proof.
  intros H. destruct k; [reflexivity|]. cbn [split_matches].
  destruct (find_first sep t) as [[b a]|] eqn:E; [|reflexivity].
  apply find_first_some in E as ->. rewrite !app_length in H. lia.
Qed.

Lemma drop_while_ext (p q : N -> bool) s :
  (forall c, p c = q c) -> drop_while p s = drop_while q s.
Proof.
  intros H. induction s as [|c r IH]; [reflexivity|]. cbn [drop_while]. rewrite H, IH. reflexivity.
Qed.

Lemma drop_while_head_out cutset t :
  (forall c, In c cutset -> hd_is c t = false) -> drop_while (in_cutset cutset) t = t.
Proof.
  intros H. destruct t as [|x t]; [reflexivity|]. cbn [drop_while]. unfold in_cutset.
  destruct (existsb (N.eqb x) cutset) eqn:E; [|reflexivity].
  apply existsb_exists in E as [c [Hin Heq]]. specialize (H c Hin). cbn [hd_is] in H. congruence.
Qed.

Lemma go_has_suffix_true s suffix :
  go_has_suffix s suffix = true <-> exists a, s = a ++ suffix.
Proof.
  unfold go_has_suffix. rewrite andb_true_iff, beq_eq, Nat.leb_le. split.
  - intros [Hl He]. exists (firstn (length s - length suffix) s).
    pose proof (firstn_skipn (length s - length suffix) s) as Hfs.
    rewrite He in Hfs. symmetry. exact Hfs.
  - intros [a ->]. rewrite app_length, Nat.add_sub, skipn_app_length. split; [lia|reflexivity].
Qed.

(* a suffix is a prefix read from the other end *)
Lemma go_cut_suffix_rev s p :
  go_cut_suffix s p = let '(r, b) := go_cut_prefix (rev s) (rev p) in (rev r, b).
Proof.
  unfold go_cut_suffix, go_cut_prefix.
  destruct (go_has_suffix s p) eqn:E.
  - apply go_has_suffix_true in E as [a ->].
    rewrite rev_app_distr, strip_prefix_app, rev_involutive, app_length, Nat.add_sub, firstn_app_length. reflexivity.
  - destruct (strip_prefix (rev p) (rev s)) as [r|] eqn:F; [|rewrite rev_involutive; reflexivity].
    apply strip_prefix_some in F.
    assert (Hs : go_has_suffix s p = true); [|congruence].
    apply go_has_suffix_true. exists (rev r).
    rewrite <- (rev_involutive s), F, rev_app_distr, rev_involutive. reflexivity.
Qed.
