(* The names the Bash back-end creates for itself, the decidable class they live in, and the fact that a
   user identifier outside that class can never be one of them.  The front end does NOT reject identifiers
   inside the class; the capture witness is computed on the models of parser, converter and shell (its value:
   C10_reserved_refuted in Properties/C10.v). *)
From Verif Require Import Base.Bytestr Base.DecFacts Front.FrontModel Back.BashLines Back.Transpile Back.BashConv
  Back.NameFacts Front.TableCheck Sem.BashSem Back.BatchConv.
Open Scope N_scope.

(* f<digits>_<anything>: the shape of a mangled local *)
Definition is_mangled (n : bytes) : bool :=
  hd_is 102 n && (let '(d, rest) := span is_digit (tl n) in (match d with [] => false | _ => true end) && hd_is 95 rest).

(* the class: every name that starts with an underscore, and every name shaped like a mangled local *)
Definition reserved_bash (n : bytes) : bool := hd_is 95 n || is_mangled n.

Lemma mangled_is_mangled k x : is_mangled (mangled k x) = true.
Proof.
  unfold is_mangled, mangled. change (bs "f" ++ ?r) with (102 :: r). cbn [hd_is tl]. rewrite span_mangled.
  destruct (dec_nat k) eqn:E; [exfalso; exact (dec_N_nonempty _ E)|]. reflexivity.
Qed.

Lemma neq_of_class (cls : bytes -> bool) u : cls u = false -> forall x, cls x = true -> u <> x.
Proof. intros Hu x Hx ->. rewrite Hx in Hu. discriminate. Qed.

(* the names the converter makes up -- helpers, return registers, loop flags, mangled locals, the scratch variables of
   its routines -- are in the class (LC_ALL, which every script sets in its first lines, is not) *)
Theorem converter_names_reserved :
  (forall s, reserved_bash (fst (next_helper s)) = true)
  /\ (forall i, reserved_bash (rv_name i) = true)
  /\ (forall k, reserved_bash (bs "_fv" ++ dec_nat k) = true)
  /\ (forall k x, reserved_bash (mangled k x) = true)
  /\ forallb reserved_bash [bs "_dvc"; bs "_ret"; bs "_ls"; bs "_ll"; bs "_i"; bs "_l"; bs "_c"; bs "_n"; bs "_v"; bs "_sah"; bs "_sch"; bs "_ssh"] = true.
Proof.
  repeat split; try reflexivity.
  intros k x. unfold reserved_bash. rewrite mangled_is_mangled. apply orb_true_r.
Qed.

Theorem unreserved_never_captured u :
  reserved_bash u = false ->
  (forall s, u <> fst (next_helper s)) /\ (forall i, u <> rv_name i) /\ (forall k, u <> bs "_fv" ++ dec_nat k) /\ (forall k x, u <> mangled k x)
  /\ ~ In u [bs "_dvc"; bs "_ret"; bs "_ls"; bs "_ll"; bs "_i"; bs "_l"; bs "_c"; bs "_n"; bs "_v"; bs "_sah"; bs "_sch"; bs "_ssh"].
Proof.
  intro H. destruct converter_names_reserved as (A & B & C & D & E). pose proof (neq_of_class _ u H) as Ne.
  rewrite forallb_forall in E.
  repeat split; [intro s; apply Ne, A|intro i; apply Ne, B|intro k; apply Ne, C|intros k x; apply Ne, D|intro I; exact (Ne u (E u I) eq_refl)].
Qed.

(* the front end accepts names of the class: a capture witness *)
Definition capture_src : bytes := bs "_h0 := 5
x := (_h0 + 1) * 2
".

Definition capture_result : option (bytes * bytes) :=
  match parse_main (table_env capture_src) (bs "/V/main.tsh") with
  | POk body _ _ _ =>
      match emit_bash body with
      | TOk _ st => match exec_lines [] (b_code st) with
                    | Some e => Some (sh_get (bs "_h0") e, sh_get (bs "x") e)
                    | None => None
                    end
      | _ => None
      end
  | _ => None
  end.

(* its own names: everything with a leading underscore, mangled locals, and the newline variable LF
   (cmd.exe folds case: lf, Lf and lF are the same variable) *)
Definition lower_byte (c : N) : N := if (65 <=? c) && (c <=? 90) then c + 32 else c.
Definition reserved_batch (n : bytes) : bool := reserved_bash n || beq (map lower_byte n) (bs "lf").

(* case folding: a user variable spelled lf is the converter's LF for cmd.exe *)
Example batch_case_folding : reserved_batch (bs "lf") = true /\ reserved_batch (bs "Lf") = true /\ reserved_batch (bs "total") = false.
Proof. repeat split; reflexivity. Qed.
