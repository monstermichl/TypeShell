(* What the Bash traversal appends: every expression a run of simple commands, every statement that
   emits anything a well-nested block; call lines appear in evaluation order. *)
From Verif Require Import Base.Bytestr Front.Ast Front.AstInd Back.BashLines Back.Transpile Back.BashConv Back.BashSyntax Back.TraverseInv.
From Coq Require Import ZArith.
Open Scope N_scope.

Fixpoint call_lines (ls : list line) : list bytes :=
  match ls with
  | [] => []
  | LCall n _ :: r => n :: call_lines r
  | _ :: r => call_lines r
  end.

Lemma call_lines_app a b : call_lines (a ++ b) = call_lines a ++ call_lines b.
Proof. induction a as [|l a IH]; [reflexivity|]. destruct l; simpl; rewrite ?IH; reflexivity. Qed.

(* Three records say that s' is s with the lines ls appended, and differ in what else stays: for ext (expressions) the
   start code, the open functions and loops and the function counter; for sext (statements, which may define a function)
   all of these but the function counter; for cext (Sem/LoopPreserve.v) the two function fields, which fix the names, while
   the loop counter may grow. *)
Record ext (s s' : bstate) (ls : list line) : Prop := mkExt {
  x_code : b_code s' = b_code s ++ ls;
  x_start : b_start s' = b_start s;
  x_funcs : b_funcs s' = b_funcs s;
  x_fors : b_fors s' = b_fors s;
  x_fcnt : b_func_counter s' = b_func_counter s
}.

Lemma ext_refl s : ext s s [].
Proof. constructor; try reflexivity. rewrite app_nil_r. reflexivity. Qed.

Lemma ext_trans s1 s2 s3 a b : ext s1 s2 a -> ext s2 s3 b -> ext s1 s3 (a ++ b).
Proof.
  intros [c1 t1 f1 o1 n1] [c2 t2 f2 o2 n2]. constructor; try congruence.
  rewrite c2, c1, app_assoc. reflexivity.
Qed.

Lemma ext_add_line l s : ext s (add_line l s) [l].
Proof. constructor; reflexivity. Qed.

Lemma ext_set_flags a b c s : ext s (set_flags a b c s) [].
Proof. constructor; try reflexivity. simpl. rewrite app_nil_r. reflexivity. Qed.

Lemma ext_next_helper s : ext s (snd (next_helper s)) [].
Proof. constructor; try reflexivity. simpl. rewrite app_nil_r. reflexivity. Qed.

Definition plain (l : line) : bool := is_simple l && match l with LCall _ _ => false | _ => true end.

Definition plains (ls : list line) : Prop := forallb plain ls = true.

Lemma plains_simple ls : plains ls -> forallb is_simple ls = true.
Proof.
  unfold plains. induction ls as [|l ls IH]; [reflexivity|]. simpl. intro H.
  apply andb_true_iff in H as [H1 H2]. unfold plain in H1. apply andb_true_iff in H1 as [H1 _]. rewrite H1, IH by exact H2. reflexivity.
Qed.

Lemma plains_calls ls : plains ls -> call_lines ls = [].
Proof.
  unfold plains. induction ls as [|l ls IH]; [reflexivity|]. simpl. intro H.
  apply andb_true_iff in H as [H1 H2]. destruct l; try (apply IH; exact H2). unfold plain in H1. simpl in H1. discriminate.
Qed.

Lemma plains_app a b : plains a -> plains b -> plains (a ++ b).
Proof. unfold plains. intros. rewrite forallb_app. apply andb_true_iff. tauto. Qed.

(* the function calls of an expression in evaluation order: arguments first, left to right *)
Fixpoint calls_expr (e : expr) : list bytes :=
  let many := fix many (es : list expr) : list bytes :=
    match es with [] => [] | x :: r => calls_expr x ++ many r end in
  match e with
  | EBool _ | EInt _ | EStr _ | EVar _ => []
  | EUnary x | EGroup x | ELen x | EItoa x | EExists x | ERead x => calls_expr x
  | EBinary l _ r | ECompare l _ r | ELogical l _ r => calls_expr l ++ calls_expr r
  | ECall n _ args => many args ++ [n]
  | EApp calls => (fix cs (l : list (bytes * list expr)) : list bytes :=
                     match l with [] => [] | c :: r => many (snd c) ++ cs r end) calls
  | ESliceInst _ vals => many vals
  | ESliceEval v i _ => calls_expr v ++ calls_expr i
  | ESubscript v a b => calls_expr a ++ (match b with Some x => calls_expr x | None => [] end) ++ calls_expr v
  | EInput p => match p with Some x => calls_expr x | None => [] end
  | ECopy _ s => calls_expr s
  end.

Fixpoint calls_many (es : list expr) : list bytes :=
  match es with [] => [] | x :: r => calls_expr x ++ calls_many r end.

Definition expr_ok (e : expr) : Prop :=
  forall used s vs s', t_expr bash_conv e used s = TOk vs s' ->
  exists ls, ext s s' ls /\ forallb is_simple ls = true /\ call_lines ls = calls_expr e.

Ltac inv H := inversion H; subst; clear H.

Lemma mbind_ok {A B} (m : M (St:=bstate) A) (f : A -> M (St:=bstate) B) s b s' :
  mbind m f s = TOk b s' -> exists a s1, m s = TOk a s1 /\ f a s1 = TOk b s'.
Proof. unfold mbind. destruct (m s) as [a s1| |]; [eauto|discriminate|discriminate]. Qed.

Lemma lift_ok {A} (f : bstate -> A * bstate) s a s' : lift f s = TOk a s' -> f s = (a, s').
Proof. unfold lift. destruct (f s). intro H. inv H. reflexivity. Qed.

Lemma upd_ok (f : bstate -> bstate) s u s' : upd f s = TOk u s' -> s' = f s.
Proof. unfold upd. intro H. inv H. reflexivity. Qed.

(* on H : m s = TOk b s', by the head of m: mb splits a bind into its two runs, ml turns a lift f into f s = (b, s'),
   mu an upd f into s' = f s, and mr, which is inv, reads b and s' off a mret *)
Tactic Notation "mb" hyp(H) "as" ident(a) ident(s1) ident(H1) ident(H2) :=
  apply mbind_ok in H as (a & s1 & H1 & H2).
Ltac mr H := inv H.
Ltac ml H := apply lift_ok in H.
Ltac mu H := apply upd_ok in H.

Lemma simple_assign n mk : forallb is_simple [LAssign n mk] = true. Proof. reflexivity. Qed.

(* s' is s0 after some plain lines; with ne, after at least one.  The converter methods are read from the
   outside in: the last thing a method does is what the lemma applied first speaks of, and it alone is
   asked whether anything was appended. *)
Definition plain_step (ne : bool) (s0 s' : bstate) : Prop :=
  exists ls, ext s0 s' ls /\ plains ls /\ (ne = true -> ls <> []).

Lemma step_refl s : plain_step false s s.
Proof. exists []. split; [apply ext_refl|]. split; [reflexivity|discriminate]. Qed.

Lemma step_ext ne1 ne s0 s s' ls :
  ext s s' ls -> plains ls -> (ne = true -> ls <> []) -> plain_step ne1 s0 s -> plain_step ne s0 s'.
Proof.
  intros E P N (l0 & E0 & P0 & _). exists (l0 ++ ls). split; [eapply ext_trans; eassumption|].
  split; [apply plains_app; assumption|]. intros Hn Hl. apply app_eq_nil in Hl as [_ Hl]. exact (N Hn Hl).
Qed.

Lemma step_add ne1 ne s0 s l : plain l = true -> plain_step ne1 s0 s -> plain_step ne s0 (add_line l s).
Proof. intro P. apply (step_ext _ _ _ _ _ [l] (ext_add_line l s)); [unfold plains; simpl; rewrite P; reflexivity|discriminate]. Qed.

Lemma step_one ne s l : plain l = true -> plain_step ne s (add_line l s).
Proof. intro P. exact (step_add _ _ _ _ _ P (step_refl s)). Qed.

Lemma step_flags ne1 s0 s a b c : plain_step ne1 s0 s -> plain_step false s0 (set_flags a b c s).
Proof. apply (step_ext _ _ _ _ _ [] (ext_set_flags a b c s)); [reflexivity|discriminate]. Qed.

Lemma step_next ne1 s0 s : plain_step ne1 s0 s -> plain_step false s0 (snd (next_helper s)).
Proof. apply (step_ext _ _ _ _ _ [] (ext_next_helper s)); [reflexivity|discriminate]. Qed.

Lemma step_helper ne1 ne s0 s mk : plain_step ne1 s0 s -> plain_step ne s0 (snd (helper_assign mk s)).
Proof. intro H. apply (step_add false); [reflexivity|]. exact (step_next _ _ _ H). Qed.

Lemma fold_steps {X Acc} (st : Acc -> bstate) (f : Acc -> X -> Acc) :
  (forall s0 a x, plain_step false s0 (st a) -> plain_step false s0 (st (f a x))) ->
  forall xs s0 a, plain_step false s0 (st a) -> plain_step false s0 (st (fold_left f xs a)).
Proof. intros Hf xs. induction xs as [|x xs IH]; intros s0 a H; [exact H|]. apply IH, Hf, H. Qed.

Definition yields {A} (ne : bool) (m : M (St:=bstate) A) (c : list bytes) : Prop :=
  forall s a s', m s = TOk a s' ->
  exists ls, ext s s' ls /\ forallb is_simple ls = true /\ call_lines ls = c /\ (ne = true -> ls <> []).

Lemma yields_steps {A} ne (m : M A) : (forall s a s', m s = TOk a s' -> plain_step ne s s') -> yields ne m [].
Proof.
  intros H s a s' Hm. destruct (H s a s' Hm) as (ls & E & P & N). exists ls.
  split; [exact E|]. split; [apply plains_simple, P|]. split; [apply plains_calls, P|exact N].
Qed.

Lemma yields_ret {A} (a : A) : yields false (mret a) [].
Proof. apply yields_steps. intros s a0 s' H. inv H. apply step_refl. Qed.

Lemma yields_err {A} ne c : yields ne (@merr bstate A) c.
Proof. intros s a s' H. discriminate. Qed.

Lemma yields_lift {A} ne (f : bstate -> A * bstate) : (forall s, plain_step ne s (snd (f s))) -> yields ne (lift f) [].
Proof. intro H. apply yields_steps. intros s a s' E. ml E. specialize (H s). rewrite E in H. exact H. Qed.

Lemma yields_upd ne f : (forall s, plain_step ne s (f s)) -> yields ne (upd f) [].
Proof. intro H. apply yields_steps. intros s a s' E. mu E. subst s'. apply H. Qed.

Lemma yields_weak {A} ne ne' (m : M A) c : (ne' = true -> ne = true) -> yields ne m c -> yields ne' m c.
Proof.
  intros Hw H s a s' Hm. destruct (H s a s' Hm) as (ls & E & S & C & N). exists ls.
  split; [exact E|]. split; [exact S|]. split; [exact C|]. intro Hn. apply N, Hw, Hn.
Qed.

Lemma yields_seq {A B} ne1 ne2 ne (m : M A) (f : A -> M B) c1 c2 :
  yields ne1 m c1 -> (forall a, yields ne2 (f a) c2) -> (ne = true -> ne1 = true \/ ne2 = true) ->
  yields ne (mbind m f) (c1 ++ c2).
Proof.
  intros Hm Hf Hor s b s' H. mb H as a s1 H1 H2.
  destruct (Hm _ _ _ H1) as (l1 & E1 & S1 & C1 & N1). destruct (Hf _ _ _ _ H2) as (l2 & E2 & S2 & C2 & N2).
  exists (l1 ++ l2). split; [eapply ext_trans; eassumption|]. split; [rewrite forallb_app, S1, S2; reflexivity|].
  split; [rewrite call_lines_app, C1, C2; reflexivity|].
  intros Hn Hl. apply app_eq_nil in Hl as [Hl1 Hl2]. destruct (Hor Hn) as [X|X]; [exact (N1 X Hl1)|exact (N2 X Hl2)].
Qed.

(* in a sequence it is the last part that is asked whether anything was appended ... *)
Lemma yields_bind {A B} ne1 ne (m : M A) (f : A -> M B) c1 c2 :
  yields ne1 m c1 -> (forall a, yields ne (f a) c2) -> yields ne (mbind m f) (c1 ++ c2).
Proof. intros Hm Hf. exact (yields_seq _ _ _ _ _ _ _ Hm Hf (fun H => or_intror H)). Qed.

Lemma yields_then {A B} ne1 ne (m : M A) (f : A -> M B) c :
  yields ne1 m c -> (forall a, yields ne (f a) []) -> yields ne (mbind m f) c.
Proof. intros Hm Hf. rewrite <- (app_nil_r c). exact (yields_bind _ _ _ _ _ _ Hm Hf). Qed.

(* ... unless what follows only reshapes the result *)
Lemma yields_fst {A B} ne ne2 (m : M A) (f : A -> M B) c :
  yields ne m c -> (forall a, yields ne2 (f a) []) -> yields ne (mbind m f) c.
Proof. intros Hm Hf. rewrite <- (app_nil_r c). exact (yields_seq _ _ _ _ _ _ _ Hm Hf (fun H => or_introl H)). Qed.

Lemma yields_map {A B} ne (m : M A) (g : A -> B) c : yields ne m c -> yields ne (mbind m (fun v => mret (g v))) c.
Proof. intro H. apply (yields_fst _ false); [exact H|]. intro a. apply yields_ret. Qed.

Lemma yields_helper ne mk : yields ne (mbind (lift (helper_assign mk)) (fun v => mret [v])) [].
Proof. apply yields_map, yields_lift. intro s. eapply step_helper, step_refl. Qed.

(* a call is the call line and then one helper per result that is used *)
Lemma yields_call n va rets used : yields true (lift (cv_func_call bstate atom bash_conv n va rets used)) [n].
Proof.
  intros s a s' H. ml H. cbn [bash_conv cv_func_call] in H.
  assert (plain_step false (add_line (LCall n va) s) s') as (lp & E & P & _).
  { destruct used; [|inv H; apply step_refl]. destruct (fold_left _ rets _) as [[vals s2] k] eqn:Ef. injection H as _ <-.
    change s2 with (snd (fst (vals, s2, k))). rewrite <- Ef. apply (fold_steps (fun acc => snd (fst acc))); [|apply step_refl].
    intros s0 [[vs st] i] _. apply step_helper. }
  exists (LCall n va :: lp). split; [exact (ext_trans _ _ _ [_] _ (ext_add_line _ _) E)|].
  split; [exact (plains_simple _ P)|]. split; [simpl; rewrite (plains_calls _ P); reflexivity|discriminate].
Qed.

(* calls, commands, copy, input and read emit a command even when their value is not used *)
Definition call_like (e : expr) : bool :=
  match e with ECall _ _ _ | EApp _ | ECopy _ _ | EInput _ | ERead _ => true | _ => false end.

Definition expr_yields (e : expr) : Prop := forall used, yields (call_like e) (t_expr bash_conv e used) (calls_expr e).

Lemma yields_args (es : list expr) : Forall expr_yields es -> yields false (args_of_fix bash_conv es) (calls_many es).
Proof.
  induction 1 as [|a r Ha _ IH]; [apply yields_ret|]. cbn [calls_many].
  eapply yields_bind; [apply Ha|]. intro va. apply yields_map, IH.
Qed.

Theorem t_expr_yields : forall e, expr_yields e.
Proof.
  apply expr_ind';
    [ intros b | intros z | intros str0 | intros e IHe | intros e1 op e2 IHe1 IHe2 | intros e1 op e2 IHe1 IHe2
    | intros e1 op e2 IHe1 IHe2 | intros v0 | intros e IHe | intros n rets args Hargs | intros calls Hcalls
    | intros d0 vals Hvals | intros e1 e2 d0 IHe1 IHe2 | intros e1 e2 eo IHe1 IHe2 IHeo | intros e IHe
    | intros p IHp | intros d0 e IHe | intros e IHe | intros e IHe | intros e IHe ];
    intro used; cbn [t_expr calls_expr call_like].
  - apply yields_ret.
  - apply yields_ret.
  - apply yields_map, yields_lift. intro s. apply step_refl.
  - (* unary *) eapply yields_then; [apply IHe|]. intro vx. apply yields_helper.
  - (* binary *)
    eapply yields_bind; [apply IHe1|]. intro vl. eapply yields_then; [apply IHe2|]. intro vr.
    cbn [bash_conv cv_binary]. destruct (is_slice (type_of e1)); [apply yields_map, yields_err|].
    destruct (dt (type_of e1)); try apply yields_map, yields_err; [apply yields_helper|].
    destruct op; try apply yields_map, yields_err. apply yields_helper.
  - (* compare *)
    eapply yields_bind; [apply IHe1|]. intro vl. eapply yields_then; [apply IHe2|]. intro vr.
    cbn [bash_conv cv_comparison]. destruct (cmp_text (type_of e1) op); [apply yields_helper|apply yields_map, yields_err].
  - (* logical *)
    eapply yields_bind; [apply IHe1|]. intro vl. eapply yields_then; [apply IHe2|]. intro vr. apply yields_helper.
  - (* var *) apply yields_steps. intros s a s' H. inv H. apply step_refl.
  - (* group *) apply (yields_weak (call_like e)); [discriminate|apply IHe].
  - (* call *)
    eapply yields_bind; [apply yields_args, Hargs|]. intro va. eapply yields_fst; [apply yields_call|]. intro res.
    destruct (used && negb (Nat.eqb (length res) (length rets))); [apply yields_err|apply yields_ret].
  - (* app *)
    apply yields_then with false.
    + induction Hcalls as [|[nm cargs] r Hc _ IH]; [apply yields_ret|].
      eapply yields_bind; [apply yields_args, Hc|]. intro va. apply yields_map, IH.
    + intro cs. apply yields_lift. intro s. cbn [bash_conv cv_app_call]. destruct used.
      * apply (step_add false); [reflexivity|]. apply (step_add false); [reflexivity|]. eapply step_next, step_next, step_refl.
      * apply step_one. reflexivity.
  - (* slice instantiation *)
    eapply yields_then; [apply yields_args, Hvals|]. intro va. apply yields_map, yields_lift. intro s.
    cbn [bash_conv cv_slice_instantiation].
    assert (plain_step false s (snd (helper_assign RNewSlice (add_line LDvcIncr s)))) as Hh by (apply (step_helper false), step_one; reflexivity).
    destruct va; [exact Hh|]. apply (step_add false); [reflexivity|exact Hh].
  - (* slice evaluation *)
    eapply yields_bind; [apply IHe1|]. intro vv. eapply yields_then; [apply IHe2|]. intro vi. apply yields_helper.
  - (* subscript *)
    eapply yields_bind; [apply IHe2|]. intro va. apply yields_bind with false.
    + destruct eo as [x|]; [apply (yields_weak (call_like x)); [discriminate|apply IHeo]|apply yields_ret].
    + intro vb. eapply yields_then; [apply IHe1|]. intro vv. apply yields_map, yields_lift. intro s.
      apply (step_flags false). apply (step_add false); [reflexivity|]. apply (step_add false); [reflexivity|]. eapply step_next, step_refl.
  - (* len *)
    eapply yields_then; [apply IHe|]. intro vx. destruct (is_string (type_of e)); [|apply yields_helper].
    apply yields_map, yields_lift. intro s.
    apply (step_add false); [reflexivity|]. apply (step_add false); [reflexivity|]. eapply step_next, step_refl.
  - (* input *)
    assert (forall pr given, yields true (mbind (lift (cv_input bstate atom bash_conv pr given)) (fun v => mret [v])) []) as Hin.
    { intros pr given. apply yields_map, yields_lift. intro s. apply (step_add false); [reflexivity|]. eapply step_next, step_refl. }
    destruct p as [x|]; [|apply Hin]. eapply yields_then; [apply IHp|]. intro vp. apply Hin.
  - (* copy *)
    eapply yields_then; [apply IHe|]. intro vs0. apply yields_map, yields_lift. intro s.
    apply (step_helper false), (step_flags false), (step_one false). reflexivity.
  - (* itoa *) eapply yields_then; [apply IHe|]. intro vx. apply yields_ret.
  - (* exists *) eapply yields_then; [apply IHe|]. intro vp. apply yields_helper.
  - (* read *)
    destruct (is_string (type_of e)); [|apply yields_err]. eapply yields_then; [apply IHe|]. intro vp. apply yields_helper.
Qed.

Theorem t_expr_ok : forall e, expr_ok e.
Proof. intros e used s vs s' H. destruct (t_expr_yields e used s vs s' H) as (ls & E & S & C & _). eauto. Qed.

Record sext (s s' : bstate) (ls : list line) : Prop := mkSext {
  sx_code : b_code s' = b_code s ++ ls;
  sx_start : b_start s' = b_start s;
  sx_funcs : b_funcs s' = b_funcs s;
  sx_fors : b_fors s' = b_fors s
}.

(* does this statement emit at least one command?  (what the parser guarantees: variables on the left of a
   definition/assignment, only calls as expression statements) *)
Fixpoint emits (st : stmt) : bool :=
  let all := fix all (l : list stmt) : bool := match l with [] => true | x :: r => emits x && all r end in
  match st with
  | SVarDef vars vals | SAssign vars vals => negb (Nat.eqb (length vars) 0) && (length vars <=? length vals)%nat
  | SVarDefCall vars _ | SAssignCall vars _ => negb (Nat.eqb (length vars) 0)
  | SFunc _ _ _ body _ => all body
  | SIf brs els =>
      negb (Nat.eqb (length brs) 0)
      && (fix ab (l : list (expr * list stmt)) : bool := match l with [] => true | b :: r => all (snd b) && ab r end) brs
      && all els
  | SFor i _ n body =>
      (match i with Some x => emits x | None => true end) && (match n with Some x => emits x | None => true end) && all body
  | SExpr e => match e with ECall _ _ _ | EApp _ | ECopy _ _ | EInput _ | ERead _ => true | _ => false end
  | _ => true
  end.

Fixpoint emits_all (l : list stmt) : bool := match l with [] => true | x :: r => emits x && emits_all r end.

Fixpoint calls_stmt (st : stmt) : list bytes :=
  let all := fix all (l : list stmt) : list bytes := match l with [] => [] | x :: r => calls_stmt x ++ all r end in
  match st with
  | SVarDef vars vals | SAssign vars vals => calls_many (firstn (length vars) vals)
  | SVarDefCall _ c | SAssignCall _ c => calls_expr c
  | SSliceAssign _ i x => calls_expr i ++ calls_expr x
  | SFunc _ _ _ body _ => all body
  | SReturn es => calls_many es
  | SIf brs els =>
      calls_many (map fst brs)
      ++ (fix ab (l : list (expr * list stmt)) : list bytes := match l with [] => [] | b :: r => all (snd b) ++ ab r end) brs
      ++ all els
  | SFor i c n body =>
      (match i with Some x => calls_stmt x | None => [] end) ++ (match n with Some x => calls_stmt x | None => [] end)
      ++ calls_expr c ++ all body
  | SBreak | SContinue => []
  | SPrint es => calls_many es
  | SPanic e => calls_expr e
  | SWrite p d a => calls_expr p ++ calls_expr d ++ calls_expr a
  | SExpr e => calls_expr e
  end.

Fixpoint calls_block (l : list stmt) : list bytes := match l with [] => [] | x :: r => calls_stmt x ++ calls_block r end.

Lemma bash_var_definition name v g s :
  cv_var_definition bstate atom bash_conv name v g s = add_line (LAssign (var_name s name g) (RAtom v)) s.
Proof. reflexivity. Qed.

Lemma bash_func_end s : cv_func_end bstate atom bash_conv s =
  match b_funcs s with
  | O => TPanic
  | S k => let s1 := add_line LClose s in
           TOk tt (mkB (b_start s1) (b_code s1) (b_var_counter s1) (b_for_counter s1) (b_fors s1) k (b_func_counter s1) (b_sah s1) (b_sch s1) (b_ssh s1))
  end.
Proof. reflexivity. Qed.

Lemma bash_if_start c s : cv_if_start bstate atom bash_conv c s = add_line (LIf (bs "if") c) s. Proof. reflexivity. Qed.
Lemma bash_else_start s : cv_else_start bstate atom bash_conv s = TOk tt (add_line LElse s). Proof. reflexivity. Qed.
Lemma bash_if_end s : cv_if_end bstate atom bash_conv s = TOk tt (add_line LFi s). Proof. reflexivity. Qed.
Lemma bash_break s : cv_break bstate atom bash_conv s = TOk tt (add_line LBreak s). Proof. reflexivity. Qed.
Lemma bash_continue s : cv_continue bstate atom bash_conv s = TOk tt (add_line LContinue s). Proof. reflexivity. Qed.
Lemma bash_print vals s : cv_print bstate atom bash_conv vals s = add_line (LEcho (join [32] (map render_atom vals))) s. Proof. reflexivity. Qed.
Lemma bash_panic v s : cv_panic bstate atom bash_conv v s = add_line LExit1 (add_line (LEcho (bs "panic: " ++ render_atom v)) s). Proof. reflexivity. Qed.
Lemma bash_for_condition c s : cv_for_condition bstate atom bash_conv c s = add_line (LBreakUnless c) s. Proof. reflexivity. Qed.
Lemma bash_for_start s :
  cv_for_start bstate atom bash_conv s =
  let k := b_for_counter s in
  add_line LWhile (add_line (LForInit (bs "_fv" ++ dec_nat k))
    (mkB (b_start s) (b_code s) (b_var_counter s) (S k) (b_fors s ++ [k]) (b_funcs s) (b_func_counter s) (b_sah s) (b_sch s) (b_ssh s))).
Proof. reflexivity. Qed.
Lemma bash_for_incr_start s : cv_for_incr_start bstate atom bash_conv s =
  match current_flag s with Some f => TOk tt (add_line (LIncrGuard f) s) | None => TPanic end. Proof. reflexivity. Qed.
Lemma bash_for_incr_end s : cv_for_incr_end bstate atom bash_conv s =
  match current_flag s with Some f => TOk tt (add_line (LFlagSet f) (add_line LFi s)) | None => TPanic end. Proof. reflexivity. Qed.
Lemma bash_for_end s : cv_for_end bstate atom bash_conv s =
  match b_fors s with
  | [] => TPanic
  | _ => let s1 := add_line LDone s in
         TOk tt (mkB (b_start s1) (b_code s1) (b_var_counter s1) (b_for_counter s1) (removelast (b_fors s1)) (b_funcs s1)
                     (b_func_counter s1) (b_sah s1) (b_sch s1) (b_ssh s1))
  end. Proof. reflexivity. Qed.

(* the open functions and loops *)
Definition frames (s : bstate) : nat * list nat := (b_funcs s, b_fors s).

(* What a computation appends that may open and close compound commands: lines ls with call lines c and Q ls,
   while the start code stays and the open functions and loops go from one to the other along R.  Q speaks of all
   the computation appends: in a sequence (appends_seq) the rest is asked for Q of the lines before it followed by
   its own, so at the last step the whole piece of script stands in the goal and a shape lemma of BashSyntax applies. *)
Definition appends {A} (R : nat * list nat -> nat * list nat -> Prop) (m : M (St:=bstate) A) (c : list bytes)
    (Q : list line -> Prop) : Prop :=
  forall s a s', m s = TOk a s' ->
  exists ls, b_code s' = b_code s ++ ls /\ b_start s' = b_start s /\ R (frames s) (frames s') /\ call_lines ls = c /\ Q ls.

Lemma appends_seq {A B} (R1 R2 R : nat * list nat -> nat * list nat -> Prop) (m : M A) (f : A -> M B) c1 c2 Q1 Q :
  appends R1 m c1 Q1 -> (forall a l1, Q1 l1 -> appends R2 (f a) c2 (fun l2 => Q (l1 ++ l2))) ->
  (forall x y z, R1 x y -> R2 y z -> R x z) -> appends R (mbind m f) (c1 ++ c2) Q.
Proof.
  intros Hm Hf HR s b s' H. mb H as a s1 H1 H2.
  destruct (Hm _ _ _ H1) as (l1 & E1 & T1 & F1 & C1 & K1). destruct (Hf a l1 K1 _ _ _ H2) as (l2 & E2 & T2 & F2 & C2 & K2).
  exists (l1 ++ l2). rewrite E2, E1, T2, T1, call_lines_app, C1, C2, app_assoc. repeat split; [exact (HR _ _ _ F1 F2)|exact K2].
Qed.

Lemma appends_bind {A B} R (m : M A) (f : A -> M B) c1 c2 Q1 Q :
  appends eq m c1 Q1 -> (forall a l1, Q1 l1 -> appends R (f a) c2 (fun l2 => Q (l1 ++ l2))) -> appends R (mbind m f) (c1 ++ c2) Q.
Proof. intros Hm Hf. apply (appends_seq eq R R _ _ _ _ _ _ Hm Hf). intros x y z <- H. exact H. Qed.

Lemma appends_weak {A R} {m : M A} {c} {Q Q' : list line -> Prop} : appends R m c Q -> (forall ls, Q ls -> Q' ls) -> appends R m c Q'.
Proof. intros H HQ s a s' Hm. destruct (H s a s' Hm) as (ls & E & T & F & C & K). eauto 8. Qed.

Lemma appends_calls {A} R (m : M A) c c' Q : appends R m c Q -> c = c' -> appends R m c' Q.
Proof. intros H <-. exact H. Qed.

Lemma appends_ret {A} (a : A) (Q : list line -> Prop) : Q [] -> appends eq (mret a) [] Q.
Proof. intros HQ s a0 s' H. inv H. exists []. rewrite app_nil_r. repeat split. exact HQ. Qed.

Lemma appends_line {m : M unit} l (Q : list line -> Prop) :
  (forall s, m s = TOk tt (add_line l s)) -> call_lines [l] = [] -> Q [l] -> appends eq m [] Q.
Proof. intros Hm Hl HQ s a s' H. rewrite Hm in H. inv H. exists [l]. repeat split; assumption. Qed.

Lemma appends_cons {B R} {m : M unit} {k : M B} l c Q :
  (forall s, m s = TOk tt (add_line l s)) -> call_lines [l] = [] -> appends R k c (fun ls => Q (l :: ls)) ->
  appends R (mbind m (fun _ => k)) c Q.
Proof.
  intros Hm Hl Hk. apply (appends_bind R m _ [] c (eq [l])); [exact (appends_line l _ Hm Hl eq_refl)|]. intros _ _ <-. exact Hk.
Qed.

Lemma yields_appends {A} ne (m : M A) c (Q : list line -> Prop) :
  yields ne m c -> (forall ls, forallb is_simple ls = true -> (ne = true -> ls <> []) -> Q ls) -> appends eq m c Q.
Proof.
  intros H HQ s a s' Hm. destruct (H s a s' Hm) as (ls & [Ec Et Ef Eo _] & S & C & N). exists ls.
  unfold frames. rewrite Ef, Eo. repeat split; try assumption. exact (HQ ls S N).
Qed.

Lemma yields_block {A} ne (m : M A) c : yields ne m c -> appends eq m c (fun ls => ne = true -> block ls).
Proof. intro H. apply (yields_appends ne _ _ _ H). intros ls S N Hn. split; [apply N, Hn|apply cmds_simple, S]. Qed.

Lemma yields_cmds {A} ne (m : M A) c : yields ne m c -> appends eq m c cmds.
Proof. intro H. apply (yields_appends ne _ _ _ H). intros ls S _. apply cmds_simple, S. Qed.

Lemma appends_sext {A} (m : M A) c Q s a s' :
  appends eq m c Q -> m s = TOk a s' -> exists ls, sext s s' ls /\ call_lines ls = c /\ Q ls.
Proof.
  intros H Hm. destruct (H s a s' Hm) as (ls & E & T & F & C & K). injection F as F1 F2. exists ls.
  split; [constructor; congruence|]. split; assumption.
Qed.

Lemma var_definition_yields ne name v g : yields ne (upd (cv_var_definition bstate atom bash_conv name v g)) [].
Proof. apply yields_upd. intro s. rewrite bash_var_definition. apply step_one. reflexivity. Qed.

Lemma eval_values_yields many es : forall i, yields false (eval_values bash_conv many es i) (calls_many es).
Proof.
  induction es as [|e es IH]; intro i; cbn [eval_values calls_many]; [apply yields_ret|].
  eapply yields_bind; [apply t_expr_yields|]. intro ve. apply (yields_bind false false _ _ []).
  - destruct many; [|apply yields_ret]. eapply yields_then; [apply (var_definition_yields false)|]. intros _.
    apply yields_steps. intros s a s' H. inv H. apply step_refl.
  - intro v. apply yields_map, IH.
Qed.

Lemma store_values_yields vars : forall vals, yields (negb (Nat.eqb (length vars) 0)) (store_values bash_conv vars vals) [].
Proof.
  induction vars as [|v vars IH]; intro vals; cbn [store_values]; [apply yields_ret|].
  destruct vals as [|x xr]; [intros s a s' H; discriminate|].
  eapply yields_fst; [apply var_definition_yields|]. intros _. apply IH.
Qed.

Lemma assign_values_yields vars es :
  yields (negb (Nat.eqb (length vars) 0) && (length vars <=? length es)%nat) (assign_values bash_conv vars es)
    (calls_many (firstn (length vars) es)).
Proof.
  apply (yields_weak (negb (Nat.eqb (length vars) 0))); [intro H; apply andb_true_iff in H; apply H|]. unfold assign_values. destruct (length es <? length vars)%nat; [intros s a s' H; discriminate|].
  eapply yields_then; [apply eval_values_yields|]. intro vs. apply store_values_yields.
Qed.

Lemma assign_call_yields vars call : yields (negb (Nat.eqb (length vars) 0)) (assign_call bash_conv vars call) (calls_expr call).
Proof.
  unfold assign_call. eapply yields_then; [apply t_expr_yields|]. intro vs.
  destruct (Nat.eqb (length vs) (length vars)); [apply store_values_yields|apply yields_err].
Qed.

Lemma func_start_appends name ps rets :
  appends (fun x y => y = (S (fst x), snd x)) (upd (cv_func_start bstate atom bash_conv name ps rets)) []
    (fun ls => exists lp, ls = LFuncOpen name :: lp /\ cmds lp).
Proof.
  intros s a s' H. mu H. subst s'.
  assert (plain_step false (cv_func_start bstate atom bash_conv name [] rets s) (cv_func_start bstate atom bash_conv name ps rets s))
    as (lp & [Ec Et Ef Eo _] & Pp & _).
  { cbn [bash_conv cv_func_start]. apply (fold_steps fst); [|apply step_refl].
    intros s0 [st i] p H. apply (step_add false); [reflexivity|exact H]. }
  exists (LFuncOpen name :: lp). unfold frames. rewrite Ec, Et, Ef, Eo. cbn. rewrite <- app_assoc, (plains_calls _ Pp).
  repeat split. exists lp. split; [reflexivity|apply cmds_simple, plains_simple, Pp].
Qed.

Lemma bash_return vals : yields true (cv_return bstate atom bash_conv vals) [].
Proof.
  apply yields_steps. intros s a s' H. cbn [bash_conv cv_return] in H. inv H. apply (step_add false); [reflexivity|].
  apply (fold_steps fst); [|apply step_refl]. intros s0 [st i] v H. apply (step_add false); [reflexivity|exact H].
Qed.

Definition stmt_ok (st : stmt) : Prop := appends eq (t_stmt bash_conv st) (calls_stmt st) (fun ls => emits st = true -> block ls).

Lemma body_appends (b : list stmt) : Forall stmt_ok b ->
  appends eq (block_fix (t_stmt bash_conv) b) (calls_block b) (fun ls => emits_all b = true -> cmds ls /\ (b <> [] -> ls <> [])).
Proof.
  induction 1 as [|st r Hst _ IH]; [apply appends_ret; intros _; split; [apply cmds_nil|congruence]|].
  eapply appends_bind; [exact Hst|]. intros _ l1 B1. apply (appends_weak IH). intros l2 B2 He.
  cbn [emits_all] in He. apply andb_true_iff in He as [He1 He2]. destruct (B1 He1) as [N1 K1]. destruct (B2 He2) as [K2 _].
  split; [apply cmds_app; assumption|]. intros _ Hl. apply app_eq_nil in Hl as [Hl _]. exact (N1 Hl).
Qed.

(* evaluateBlock: an empty body becomes a no-op command *)
Lemma t_block_appends (b : list stmt) : Forall stmt_ok b ->
  appends eq (match b with [] => upd (cv_nop bstate atom bash_conv) | _ => block_fix (t_stmt bash_conv) b end) (calls_block b)
    (fun ls => emits_all b = true -> block ls).
Proof.
  intro Hb. destruct b as [|st r].
  - apply (appends_line LNop); [reflexivity|reflexivity|]. intros _. split; [discriminate|apply cmds_simple; reflexivity].
  - apply (appends_weak (body_appends _ Hb)). intros ls B He. destruct (B He) as [K N]. split; [apply N; discriminate|exact K].
Qed.

Lemma conds_yields (l : list (expr * list stmt)) :
  yields false
    ((fix conds (l : list (expr * list stmt)) : M (list atom) :=
        match l with
        | [] => mret []
        | (c, _) :: r => mbind (t_expr bash_conv c true) (fun vc => mbind (conds r) (fun vr => mret (first_value bash_conv vc :: vr)))
        end) l)
    (calls_many (map fst l)).
Proof.
  induction l as [|[c b] r IH]; [apply yields_ret|]. cbn [map fst calls_many].
  eapply yields_bind; [apply t_expr_yields|]. intro vc. apply yields_map, IH.
Qed.

Fixpoint emits_branches (l : list (expr * list stmt)) : bool :=
  match l with [] => true | b :: r => emits_all (snd b) && emits_branches r end.
Fixpoint calls_branches (l : list (expr * list stmt)) : list bytes :=
  match l with [] => [] | b :: r => calls_block (snd b) ++ calls_branches r end.

Lemma bodies_chain (l : list (expr * list stmt)) : Forall (fun b => Forall stmt_ok (snd b)) l -> forall vs,
  appends eq
    ((fix bodies (l : list (expr * list stmt)) (vs : list atom) {struct l} : M unit :=
        match l with
        | [] => mret tt
        | (_, b) :: r =>
            match vs with
            | [] => fun _ : bstate => TPanic
            | v :: vr =>
                mbind (cv_elseif_start bstate atom bash_conv v)
                  (fun _ => mbind (match b with [] => upd (cv_nop bstate atom bash_conv) | _ :: _ => block_fix (t_stmt bash_conv) b end)
                                  (fun _ => bodies r vr))
            end
        end) l vs)
    (calls_branches l) (fun ls => emits_branches l = true -> is_chain ls).
Proof.
  induction 1 as [|[c b] r Hb _ IH]; intro vs; [apply appends_ret; intros _; apply chain_nil|].
  destruct vs as [|v vr]; [intros s a s' H; discriminate|].
  apply (appends_cons (LIf (bs "elif") v)); [reflexivity|reflexivity|].
  eapply appends_bind; [exact (t_block_appends b Hb)|]. intros _ lb Bb. apply (appends_weak (IH vr)). intros lr Br He.
  cbn [emits_branches snd] in He. apply andb_true_iff in He as [He1 He2]. apply (chain_cons v lb lr); [apply Bb, He1|apply Br, He2].
Qed.

Theorem t_stmt_ok : forall st, stmt_ok st.
Proof.
  apply stmt_ind';
    [ intros vars es | intros vars c | intros vars es | intros vars c | intros v i x
    | intros n rets ps body pub Hbody | intros es | intros brs els Hbrs Hels | intros i c n body Hi Hn Hbody
    | | | intros es | intros e | intros p d a | intros e ];
    unfold stmt_ok; cbn [t_stmt emits calls_stmt].
  - (* definitions and assignments *) apply yields_block, assign_values_yields.
  - apply yields_block, assign_call_yields.
  - apply yields_block, assign_values_yields.
  - apply yields_block, assign_call_yields.
  - (* slice assignment *)
    apply yields_block. eapply yields_bind; [apply t_expr_yields|]. intro vi. eapply yields_then; [apply t_expr_yields|]. intro vv.
    apply yields_then with false.
    + unfold default_of. destruct (dt (type_of x)); try apply yields_err; apply yields_ret.
    + intro dv. apply yields_upd. intro s. apply (step_add false); [reflexivity|]. apply (step_flags false), step_refl.
  - (* function definition: func_start opens the function that func_end closes *)
    eapply appends_calls.
    + eapply (appends_seq _ (fun y z => y = (S (fst z), snd z)) eq); [apply func_start_appends| |].
      * intros _ l1 (lp & -> & Kp). eapply appends_bind; [exact (t_block_appends body Hbody)|]. intros _ lb Bb.
        intros s a s' H. rewrite bash_func_end in H. destruct (b_funcs s) as [|k] eqn:Ek; [discriminate|]. inv H.
        exists [LClose]. unfold frames. cbn. rewrite Ek. do 4 (split; [reflexivity|]). intro He. apply (func_shape n lp lb); [exact Kp|apply Bb, He].
      * intros [a b] y [e f] -> H. cbn in H. inv H. reflexivity.
    + apply app_nil_r.
  - (* return *)
    apply yields_block. eapply yields_then; [|intro vs; apply bash_return].
    apply yields_args, Forall_forall. intros e _. apply t_expr_yields.
  - (* if *)
    destruct brs as [|[c0 b0] elifs]; [intros s u s' H; discriminate|]. inversion Hbrs as [|? ? Hb0 Helifs]; subst.
    eapply appends_calls.
    + eapply appends_bind; [eapply yields_cmds, t_expr_yields|]. intros v0 l0 K0.
      eapply appends_bind; [eapply yields_cmds, conds_yields|]. intros cs lc Kc.
      apply (appends_cons (LIf (bs "if") (first_value bash_conv v0))); [reflexivity|reflexivity|].
      eapply appends_bind; [exact (t_block_appends b0 Hb0)|]. intros _ lb Bb.
      eapply appends_bind; [exact (bodies_chain elifs Helifs cs)|]. intros _ lch Bch.
      eapply (appends_bind _ _ _ (calls_block els) _ (fun le => emits_all els = true -> is_else le)).
      { destruct els as [|e0 er]; [apply appends_ret; intros _; apply else_nil|].
        apply (appends_cons LElse); [reflexivity|reflexivity|].
        apply (appends_weak (t_block_appends _ Hels)). intros l B He. apply else_some, B, He. }
      intros _ le Be. apply (appends_line LFi); [reflexivity|reflexivity|].
      cbn [length Nat.eqb negb andb]. intro He. apply andb_true_iff in He as [He Hee]. apply andb_true_iff in He as [Heb0 Heel].
      rewrite app_assoc. apply if_shape; [apply cmds_app; assumption|apply Bb, Heb0|apply Bch, Heel|apply Be, Hee].
    + cbn [map fst snd calls_many]. rewrite app_nil_r, <- !app_assoc. reflexivity.
  - (* for: for_start opens the loop that for_end closes *)
    eapply appends_calls.
    + eapply (appends_bind _ _ _ (match i with Some x => calls_stmt x | None => [] end) _
                (fun li => match i with Some x => emits x | None => true end = true -> cmds li)).
      { destruct i as [x|]; [|apply appends_ret; intros _; apply cmds_nil]. apply (appends_weak Hi). intros l B He. apply B, He. }
      intros _ li Bi.
      eapply (appends_seq (fun x y => exists k, y = (fst x, snd x ++ [k])) (fun y z => z = (fst y, removelast (snd y))) eq
                _ _ [] _ (fun l => exists flag, l = [LForInit flag; LWhile])).
      * intros s a s' H. mu H. subst s'. eexists. split; [symmetry; apply app_assoc|]. split; [reflexivity|]. split; [eexists; reflexivity|]. split; [reflexivity|]. eexists. reflexivity.
      * intros _ l1 (flag & ->).
        eapply (appends_bind _ _ _ (match n with Some x => calls_stmt x | None => [] end) _
                  (fun ln => match n with Some x => emits x | None => true end = true -> is_incr ln)).
        { destruct n as [x|]; [|apply appends_ret; intros _; apply incr_nil]. eapply appends_calls; [|apply app_nil_r].
          eapply (appends_bind _ _ _ [] (calls_stmt x ++ []) (fun l => exists f, l = [LIncrGuard f])).
          { intros s a s' H. rewrite bash_for_incr_start in H. destruct (current_flag s) as [f|]; [|discriminate]. inv H.
            exists [LIncrGuard f]. repeat split. exists f. reflexivity. }
          intros _ l1 (f1 & ->). eapply appends_bind; [exact Hn|]. intros _ l B.
          intros s a s' H. rewrite bash_for_incr_end in H. destruct (current_flag s) as [f2|]; [|discriminate]. inv H.
          exists [LFi; LFlagSet f2]. cbn. rewrite <- app_assoc. do 4 (split; [reflexivity|]). intro He. apply (incr_some f1 l f2), B, He. }
        intros _ ln Bn. eapply appends_bind; [eapply yields_cmds, t_expr_yields|]. intros vc lc Kc.
        apply (appends_cons (LBreakUnless (first_value bash_conv vc))); [reflexivity|reflexivity|].
        eapply appends_bind; [exact (t_block_appends body Hbody)|]. intros _ lb Bb.
        intros s a s' H. rewrite bash_for_end in H. destruct (b_fors s); [discriminate|]. inv H.
        exists [LDone]. do 4 (split; [reflexivity|]). intro He. apply andb_true_iff in He as [He Heb]. apply andb_true_iff in He as [Hei Hen].
        apply for_shape; [apply Bi, Hei|apply Bn, Hen|exact Kc|apply Bb, Heb].
      * intros [a b] y z (k & ->) ->. cbn. rewrite removelast_last. reflexivity.
    + cbn [app]. rewrite app_nil_r. reflexivity.
  - (* break *) apply yields_block, (yields_upd true (add_line LBreak)). intro s. apply step_one. reflexivity.
  - (* continue *) apply yields_block, (yields_upd true (add_line LContinue)). intro s. apply step_one. reflexivity.
  - (* print *)
    apply yields_block, yields_then with false.
    + induction es as [|e es IH]; [apply yields_ret|]. cbn [calls_many].
      eapply yields_bind; [apply t_expr_yields|]. intro ve. apply yields_map, IH.
    + intro vs. apply yields_upd. intro s. rewrite bash_print. apply step_one. reflexivity.
  - (* panic *)
    apply yields_block. eapply yields_then; [apply t_expr_yields|]. intro ve. apply yields_upd. intro s. rewrite bash_panic.
    apply (step_add false); [reflexivity|]. apply step_one. reflexivity.
  - (* write *)
    apply yields_block.
    destruct (negb (is_string (type_of p))); [apply yields_err|]. eapply yields_bind; [apply t_expr_yields|]. intro vp.
    destruct (negb (is_string (type_of d))); [apply yields_err|]. eapply yields_bind; [apply t_expr_yields|]. intro vd.
    destruct (negb (is_bool (type_of a))); [apply yields_err|]. eapply yields_then; [apply t_expr_yields|]. intro va.
    apply yields_upd. intro s. apply (step_add false); [reflexivity|]. eapply step_helper, step_refl.
  - (* expression statement *)
    apply yields_block, (yields_map _ _ (fun _ => tt)), t_expr_yields.
Qed.

Lemma stmt_calls st s s' : t_stmt bash_conv st s = TOk tt s' -> exists ls, b_code s' = b_code s ++ ls /\ call_lines ls = calls_stmt st.
Proof. intro H. destruct (t_stmt_ok st s tt s' H) as (ls & E & _ & _ & C & _). exists ls. split; assumption. Qed.

Lemma helper_cmds (a : bool) h : (forall f r, check h (f :: r) = Some (mark1 f :: r)) -> cmds (if a then h else []).
Proof. intro H. destruct a; [|apply cmds_nil]. intros [|f r] Hn; [congruence|]. destruct h; [reflexivity|apply H]. Qed.

Definition helper_defs (s : bstate) : list line :=
  (if b_sah s then sah_helper else []) ++ (if b_sch s then sch_helper else []) ++ (if b_ssh s then ssh_helper else []).

Lemma helper_defs_cmds s : cmds (helper_defs s).
Proof. apply cmds_app; [|apply cmds_app]; apply helper_cmds; reflexivity. Qed.

(* Every accepted program is translated to a script that is the shebang, the locale line, the helper
   definitions and the code, with the function calls in evaluation order; if all its statements emit
   (what the parser guarantees), everything after the shebang is a sequence of complete commands. *)
Theorem emit_bash_code body script st :
  emit_bash body = TOk script st ->
  script = render_script (b_start st ++ b_code st) /\ call_lines (b_code st) = calls_block body
  /\ (emits_all body = true -> exists ls, b_start st ++ b_code st = LShebang :: ls /\ block ls).
Proof.
  unfold emit_bash, transpile_program. intro H.
  destruct (_ body (cv_program_start _ _ _ _)) as [u s1| |] eqn:E; try discriminate. inv H.
  assert (Forall stmt_ok body) as Hall by (apply Forall_forall; intros x _; apply t_stmt_ok).
  destruct (body_appends body Hall _ _ _ E) as (ls & Ec & Es & _ & C & K).
  split; [reflexivity|]. split; [rewrite <- C; exact (f_equal call_lines Ec)|]. intro He. exists (locale_line :: helper_defs s1 ++ ls).
  split; [cbn [bash_conv cv_program_end b_start b_code]; rewrite Es, Ec; reflexivity|]. split; [discriminate|].
  apply (cmds_app [locale_line]); [apply cmds_simple; reflexivity|]. apply cmds_app; [apply helper_defs_cmds|apply K, He].
Qed.
