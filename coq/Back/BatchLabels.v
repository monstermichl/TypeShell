(* Label allocation of the Batch converter (the state named by property C05: ifCounter, forCounter, endLabels,
   ifs): for every program, every label of the three allocated families  _i<n>  _f<n>  _e<n>  is defined at most
   once in the emitted script, so two constructs never share one.  Proved as an invariant that every converter
   method preserves, lifted to all programs by the generic traversal theorem (Back/TraverseInv.v). *)
From Verif Require Import Base.Bytestr Base.ListFacts Base.DecFacts Front.Ast Back.BashLines Back.Transpile Back.BatchConv Back.BatchSyntax Back.TraverseInv.
From Coq Require Import Arith.
Open Scope N_scope.

Fixpoint cnt (l : bytes) (ls : list bline) : nat :=
  match ls with
  | [] => 0
  | BLabel x :: r => ((if beq l x then 1 else 0) + cnt l r)%nat
  | _ :: r => cnt l r
  end.

Lemma cnt_app l a b : cnt l (a ++ b) = (cnt l a + cnt l b)%nat.
Proof. induction a as [|x a IH]; [reflexivity|]. destruct x; cbn [app cnt]; rewrite IH; lia. Qed.

Lemma cnt_concat_snoc l (fc : list (list bline)) b :
  cnt l (concat (removelast fc ++ [last fc [] ++ [b]])) = (cnt l (concat fc) + cnt l [b])%nat.
Proof.
  destruct fc as [|x r] using rev_ind; [cbn; lia|].
  rewrite removelast_last, last_last, !concat_app. cbn [concat]. rewrite !app_nil_r, !cnt_app. lia.
Qed.

Lemma cnt_concat_rev l (fc : list (list bline)) : cnt l (concat (rev fc)) = cnt l (concat fc).
Proof.
  induction fc as [|x r IH]; [reflexivity|]. cbn [rev concat]. rewrite concat_app, !cnt_app. cbn [concat]. rewrite app_nil_r, IH. lia.
Qed.

Definition code (s : wstate) : list bline := concat (w_funcs_code s) ++ w_global s.
Definition cntS (l : bytes) (s : wstate) : nat := cnt l (code s).

Definition view (s : wstate) := (w_if_counter s, w_for_counter s, w_ifs s, w_end_labels s).

Lemma view_fields s s' : view s' = view s ->
  w_if_counter s' = w_if_counter s /\ w_for_counter s' = w_for_counter s /\ w_ifs s' = w_ifs s /\ w_end_labels s' = w_end_labels s.
Proof. unfold view. intro H. inversion H. repeat split; assumption. Qed.

(* addLine touches the code and nothing else *)
Lemma w_add_code b s : exists g pf fc, w_add b s = w_with_code s g pf fc.
Proof. unfold w_add. destruct (rev (w_funcs s)); repeat eexists. Qed.

Lemma w_adds_code ls : forall s, exists g pf fc, w_adds ls s = w_with_code s g pf fc.
Proof.
  unfold w_adds. induction ls as [|b r IH]; intro s; cbn [fold_left].
  - exists (w_global s), (w_prev_func s), (w_funcs_code s). destruct s; reflexivity.
  - destruct (w_add_code b s) as (g & pf & fc & ->). destruct (IH (w_with_code s g pf fc)) as (g' & pf' & fc' & ->). repeat eexists.
Qed.

Lemma w_adds_view ls s : view (w_adds ls s) = view s.
Proof. destruct (w_adds_code ls s) as (g & pf & fc & ->). reflexivity. Qed.

Lemma w_add_funcs b s : w_funcs (w_add b s) = w_funcs s.
Proof. destruct (w_add_code b s) as (g & pf & fc & ->). reflexivity. Qed.

Lemma cnt_w_add l b s : cntS l (w_add b s) = (cntS l s + cnt l [b])%nat.
Proof.
  unfold cntS, code, w_add. destruct (rev (w_funcs s)) as [|cur r]; cbn [w_with_code w_funcs_code w_global].
  - rewrite !cnt_app. lia.
  - destruct (beq cur (w_prev_func s)).
    + rewrite !cnt_app, cnt_concat_snoc. lia.
    + rewrite !cnt_app, cnt_concat_snoc, concat_app. cbn [concat]. rewrite !app_nil_r. lia.
Qed.

Lemma cnt_w_adds l ls : forall s, cntS l (w_adds ls s) = (cntS l s + cnt l ls)%nat.
Proof.
  unfold w_adds. induction ls as [|b r IH]; intro s; cbn [fold_left]; [cbn [cnt]; lia|].
  change (b :: r) with ([b] ++ r). rewrite IH, cnt_w_add, cnt_app. lia.
Qed.

Definition lab (c : N) (k : nat) : bytes := 95 :: c :: dec_nat k.
Definition fam (c : N) : Prop := c = 105 \/ c = 102 \/ c = 101.        (* i f e *)

Lemma fam_i : fam 105. Proof. left; reflexivity. Qed.
Lemma fam_f : fam 102. Proof. right; left; reflexivity. Qed.
Lemma fam_e : fam 101. Proof. right; right; reflexivity. Qed.

Lemma lab_inj c k c' k' : lab c k = lab c' k' -> c = c' /\ k = k'.
Proof. unfold lab, dec_nat. intro H. inversion H as [[Ec E]]. apply dec_N_inj, Nat2N.inj in E. split; [reflexivity|exact E]. Qed.

Lemma beq_lab_eqb c k c' k' : beq (lab c k) (lab c' k') = (c =? c') && Nat.eqb k k'.
Proof.
  apply Bool.eq_true_iff_eq. rewrite beq_eq, andb_true_iff, N.eqb_eq, Nat.eqb_eq.
  split; [apply lab_inj|intros [-> ->]; reflexivity].
Qed.

Definition is_fam (l : bytes) : bool :=
  hd_is 95 l && (let c := hd 0 (tl l) in (c =? 105) || (c =? 102) || (c =? 101))
  && (match tl (tl l) with [] => false | d => forallb is_digit d end).

Lemma lab_is_fam c k : fam c -> is_fam (lab c k) = true.
Proof.
  intro H. unfold is_fam, lab. cbn [hd_is tl hd]. rewrite N.eqb_refl. cbn [andb].
  assert (((c =? 105) || (c =? 102) || (c =? 101)) = true) as E by (destruct H as [H|[H|H]]; subst; reflexivity).
  rewrite E. cbn [andb]. destruct (dec_nat k) eqn:D; [exfalso; exact (dec_N_nonempty _ D)|]. rewrite <- D. apply dec_N_digits.
Qed.

Definition no_fam_label (b : bline) : bool := match b with BLabel x => negb (is_fam x) | _ => true end.

Lemma cnt_no_fam c k ls : fam c -> forallb no_fam_label ls = true -> cnt (lab c k) ls = 0%nat.
Proof.
  intro Hc. induction ls as [|b r IH]; intro H; [reflexivity|]. cbn [forallb] in H. apply andb_true_iff in H as [Hb Hr].
  destruct b; cbn [cnt]; try exact (IH Hr). cbn [no_fam_label] in Hb.
  destruct (beq (lab c k) l) eqn:E; [|exact (IH Hr)]. apply beq_eq in E. subst l. rewrite (lab_is_fam c k Hc) in Hb. discriminate.
Qed.

Definition plain_name (n : bytes) : bool := negb (hd_is 95 n).

Lemma plain_no_fam n : plain_name n = true -> no_fam_label (BLabel n) = true.
Proof. unfold plain_name, no_fam_label, is_fam. intro H. apply negb_true_iff in H. rewrite H. reflexivity. Qed.

Definition quiet (s s' : wstate) : Prop :=
  view s' = view s /\ forall c k, fam c -> cntS (lab c k) s' = cntS (lab c k) s.

Lemma quiet_same_code s s' : view s' = view s -> w_funcs_code s' = w_funcs_code s -> w_global s' = w_global s -> quiet s s'.
Proof. intros V F G. split; [exact V|]. intros c k _. unfold cntS, code. rewrite F, G. reflexivity. Qed.

Lemma quiet_next s : quiet s (snd (w_next_helper s)).
Proof. apply quiet_same_code; reflexivity. Qed.

Lemma next_helper_eq s h s1 : w_next_helper s = (h, s1) -> s1 = snd (w_next_helper s).
Proof. intro H. rewrite H. reflexivity. Qed.

(* the rest of the script (start lines, helper routines, end lines) defines no family label *)
Definition Clean (s : wstate) : Prop := forallb no_fam_label (w_start s) = true /\ w_helper s = [] /\ w_end s = [].

Lemma Clean_adds ls s : Clean s -> Clean (w_adds ls s).
Proof. destruct (w_adds_code ls s) as (g & pf & fc & ->). exact (fun H => H). Qed.

(* calm steps are quiet and keep the rest of the script clean; every method but the four that allocate or
   define labels is a chain of them, each link written  calm s0 s -> calm s0 (step s) *)
Definition calm (s s' : wstate) : Prop := quiet s s' /\ (Clean s -> Clean s').

Lemma calm_refl s : calm s s.
Proof. split; [split; [reflexivity|intros; reflexivity]|exact (fun H => H)]. Qed.

Lemma calm_then s0 s s' : calm s s' -> calm s0 s -> calm s0 s'.
Proof.
  intros [[V2 C2] F2] [[V1 C1] F1]. split; [split; [congruence|]|exact (fun H => F2 (F1 H))].
  intros c k Hc. rewrite (C2 c k Hc). apply C1, Hc.
Qed.

Lemma calm_same s s' : view s' = view s -> w_funcs_code s' = w_funcs_code s -> w_global s' = w_global s ->
  w_start s' = w_start s -> w_helper s' = w_helper s -> w_end s' = w_end s -> calm s s'.
Proof. intros V F G A B C. split; [apply quiet_same_code; assumption|]. unfold Clean. rewrite A, B, C. exact (fun H => H). Qed.

Lemma c_adds s0 ls s : calm s0 s -> forallb no_fam_label ls = true -> calm s0 (w_adds ls s).
Proof.
  intros H Hl. apply (calm_then s0 s); [|exact H]. split; [split; [apply w_adds_view|]|apply Clean_adds].
  intros c k Hc. rewrite cnt_w_adds, (cnt_no_fam c k ls Hc Hl). lia.
Qed.

Lemma c_add s0 b s : calm s0 s -> no_fam_label b = true -> calm s0 (w_add b s).
Proof. intros H Hb. apply (c_adds s0 [b] s H). cbn [forallb]. rewrite Hb. reflexivity. Qed.

Lemma c_set s0 f s : calm s0 s -> calm s0 (w_set f s).
Proof. apply calm_then, calm_same; reflexivity. Qed.

Lemma c_counters s0 s vc : calm s0 s -> calm s0 (w_with_counters s vc (w_if_counter s) (w_for_counter s)).
Proof. apply calm_then, calm_same; reflexivity. Qed.

Lemma c_stacks s0 s fu fcn fo : calm s0 s -> calm s0 (w_with_stacks s (w_end_labels s) fu fcn fo (w_ifs s)).
Proof. apply calm_then, calm_same; reflexivity. Qed.

Lemma c_lf s0 s : calm s0 s -> calm s0 (w_add_lf s).
Proof.
  apply calm_then. unfold w_add_lf. destruct (w_lf s); [apply calm_refl|]. split; [apply quiet_same_code; reflexivity|].
  intros (A & B & C). repeat split; [|exact B|exact C]. cbn [w_start]. rewrite forallb_app, A. reflexivity.
Qed.

Lemma c_call s0 n g a s : calm s0 s -> calm s0 (w_call n g a s).
Proof.
  intro H. unfold w_call. apply c_add; [|reflexivity].
  apply fold_indexed_inv; [|exact H]. intros st i x Hst. apply c_add; [exact Hst|reflexivity].
Qed.

Lemma c_echo s0 t s : calm s0 s -> calm s0 (w_echo t s).
Proof. intro H. apply c_call, c_set, H. Qed.

Lemma c_rets s0 (rets : list vtype) : forall (vs : list bytes) (s : wstate) (i : nat), calm s0 s ->
  calm s0 (snd (fst (fold_left (fun (acc : list bytes * wstate * nat) (_ : vtype) =>
                                  let '(vs, st, i) := acc in
                                  let '(h, st1) := w_next_helper st in
                                  (vs ++ [w_eval st1 h false], w_add (w_assign st1 h (bang (rv_name_w i)) false) st1, S i)) rets (vs, s, i)))).
Proof.
  induction rets as [|r rs IH]; intros vs s i H; [exact H|].
  cbn [fold_left w_next_helper]. apply IH, c_add; [apply c_counters, H|reflexivity].
Qed.

(* The database holds calm_refl and the links c_*, one for each operation on the state that the quiet methods are made of.
   The goal names the steps, so auto finds the chain by their heads alone; its depth has to reach the number of steps a
   method chains, which for a few of them is more than the default 5. *)
Create HintDb calm discriminated.
#[export] Hint Constants Opaque : calm.
#[export] Hint Resolve calm_refl c_add c_adds c_set c_counters c_stacks c_lf c_call c_echo : calm.
#[export] Hint Extern 0 (_ = true) => reflexivity : calm.

(* one family: f k definitions of the label number k so far, n the next number, stk the labels still to be defined *)
Definition famst (c : N) (n : nat) (stk : list bytes) (f : nat -> nat) : Prop :=
  (forall k, (f k <= 1)%nat) /\ (forall k, (n <= k)%nat -> f k = 0%nat) /\ NoDup stk
  /\ forall l, In l stk -> exists k, l = lab c k /\ (k < n)%nat /\ f k = 0%nat.

Lemma famst_once c n stk f : famst c n stk f -> forall k, (f k <= 1)%nat.
Proof. intros (A & _). exact A. Qed.

Lemma famst_fresh c n stk f : famst c n stk f -> forall k, (n <= k)%nat -> f k = 0%nat.
Proof. intros (_ & B & _). exact B. Qed.

Lemma famst_ext {c n stk f f'} : famst c n stk f -> (forall k, f' k = f k) -> famst c n stk f'.
Proof.
  intros (A & B & D & F) E. repeat split; [intro k; rewrite E; apply A|intros k Hk; rewrite E; apply B, Hk|exact D|].
  intros l Hl. destruct (F l Hl) as (k & L & Hk & Z). exists k. rewrite E. repeat split; assumption.
Qed.

Lemma famst_push c n stk f : famst c n stk f -> famst c (S n) (stk ++ [lab c n]) f.
Proof.
  intros (A & B & D & F). repeat split; [exact A|intros k Hk; apply B; lia| |].
  - apply NoDup_snoc. split; [exact D|]. intro Hin. destruct (F _ Hin) as (k & L & Hk & _). apply lab_inj in L. lia.
  - intros l Hl. apply in_app_or in Hl as [Hl|[<-|[]]].
    + destruct (F l Hl) as (k & L & Hk & Z). exists k. repeat split; [exact L|lia|exact Z].
    + exists n. repeat split; [lia|apply B; lia].
Qed.

(* the innermost open label, about to be popped and defined *)
Lemma famst_last c n stk x f : famst c n (stk ++ [x]) f ->
  famst c n stk f /\ ~ In x stk /\ exists k, x = lab c k /\ (k < n)%nat /\ f k = 0%nat.
Proof.
  intros (A & B & D & F). apply NoDup_snoc in D as [D N].
  repeat split; [exact A|exact B|exact D| |exact N|apply F, in_or_app; right; left; reflexivity].
  intros l Hl. apply F, in_or_app. left. exact Hl.
Qed.

(* label number k0, so far undefined and not open, is defined; the counter may move past it *)
Lemma famst_def c n n' stk f f' k0 : famst c n stk f -> f k0 = 0%nat -> ~ In (lab c k0) stk -> (k0 < n')%nat -> (n <= n')%nat ->
  (forall k, f' k = ((if Nat.eqb k k0 then 1 else 0) + f k)%nat) -> famst c n' stk f'.
Proof.
  intros (A & B & D & F) Z N Hk Hn E. repeat split; [| |exact D|].
  - intro k. rewrite E. destruct (Nat.eqb_spec k k0) as [->|_]; [rewrite Z; lia|specialize (A k); lia].
  - intros k Hk'. rewrite E, B by lia. destruct (Nat.eqb_spec k k0); lia.
  - intros l Hl. destruct (F l Hl) as (k & -> & Hk' & Z'). exists k. rewrite E, Z'.
    destruct (Nat.eqb_spec k k0) as [->|_]; [contradiction|]. repeat split; lia.
Qed.

Definition fam_count (c : N) (s : wstate) (k : nat) : nat := cntS (lab c k) s.

(* the invariant: the three families; _f has no stack of its own, its label is defined where it is allocated *)
Definition Inv (s : wstate) : Prop :=
  famst 105 (w_if_counter s) (w_ifs s) (fam_count 105 s) /\ famst 102 (w_for_counter s) [] (fam_count 102 s)
  /\ famst 101 (w_for_counter s) (w_end_labels s) (fam_count 101 s).

Definition Good (s : wstate) : Prop := Inv s /\ Clean s.

Lemma Inv_once s : Inv s -> forall c k, fam c -> (cntS (lab c k) s <= 1)%nat.
Proof. intros (A & B & C) c k [-> | [-> | ->]]; [exact (famst_once _ _ _ _ A k)|exact (famst_once _ _ _ _ B k)|exact (famst_once _ _ _ _ C k)]. Qed.

Lemma Inv_quiet s s' : quiet s s' -> Inv s -> Inv s'.
Proof.
  intros [V Cn] (A & B & C). destruct (view_fields s s' V) as (E1 & E2 & E3 & E4). unfold Inv. rewrite E1, E2, E3, E4.
  split; [|split].
  - exact (famst_ext A (fun k => Cn 105 k fam_i)).
  - exact (famst_ext B (fun k => Cn 102 k fam_f)).
  - exact (famst_ext C (fun k => Cn 101 k fam_e)).
Qed.

Lemma Good_calm s s' : calm s s' -> Good s -> Good s'.
Proof. intros [Q F] [I Cl]. split; [exact (Inv_quiet s s' Q I)|exact (F Cl)]. Qed.

Definition calm_res {A} (s : wstate) (r : tres wstate A) : Prop := match r with TOk _ s' => calm s s' | _ => True end.

Lemma Good_res {A} s (r : tres wstate A) : calm_res s r -> forall a s', Good s -> r = TOk a s' -> Good s'.
Proof. intros H a s' G ->. exact (Good_calm s s' H G). Qed.

Lemma famst_init c f : (forall k, f k = 0%nat) -> famst c 0 [] f.
Proof. intro Z. repeat split; [intro k; rewrite Z; lia|intros k _; apply Z|constructor|intros l []]. Qed.

Lemma Good_start : Good (cv_program_start wstate bytes batch_conv w_init).
Proof. split; [split; [|split]; apply famst_init; reflexivity|repeat split]. Qed.

Lemma Good_if_start c s : Good s -> Good (cv_if_start wstate bytes batch_conv c s).
Proof.
  intros [(A & B & C) Cl]. cbn [batch_conv cv_if_start]. eapply Good_calm; [apply c_add; [apply calm_refl|reflexivity]|].
  split; [|exact Cl]. split; [exact (famst_push _ _ _ _ A)|split; [exact B|exact C]].
Qed.

(* label number k0 of family c0 is defined after lines that define no family label *)
Lemma define_label pre c0 k0 s : forallb no_fam_label pre = true ->
  exists g pf fc, w_add (BLabel (lab c0 k0)) (w_adds pre s) = w_with_code s g pf fc
    /\ forall c, fam c -> forall k, fam_count c (w_with_code s g pf fc) k = ((if (c =? c0)%N && Nat.eqb k k0 then 1 else 0) + fam_count c s k)%nat.
Proof.
  intro Hp. destruct (w_adds_code (pre ++ [BLabel (lab c0 k0)]) s) as (g & pf & fc & E). exists g, pf, fc. rewrite <- E.
  split; [symmetry; apply fold_left_app|]. intros c Hc k. unfold fam_count.
  rewrite cnt_w_adds, cnt_app, (cnt_no_fam c k pre Hc Hp). cbn [cnt]. rewrite beq_lab_eqb. lia.
Qed.

Lemma Good_for_start s : Good s -> Good (cv_for_start wstate bytes batch_conv s).
Proof.
  intros [(A & B & C) Cl]. cbn [batch_conv cv_for_start]. set (k0 := w_for_counter s). set (s2 := w_with_stacks _ _ _ _ _ _).
  destruct (define_label [set_line (bs "_fv" ++ dec_nat k0) []] 102 k0 s2 eq_refl) as (g & pf & fc & E & Cs).
  change (w_adds [_; _] s2) with (w_add (BLabel (lab 102 k0)) (w_adds [set_line (bs "_fv" ++ dec_nat k0) []] s2)). rewrite E.
  split; [|exact Cl]. split; [|split].
  - exact (famst_ext A (Cs 105 fam_i)).
  - apply (famst_def 102 k0 (S k0) [] (fam_count 102 s) _ k0 B); [apply (famst_fresh _ _ _ _ B), le_n|intros []|apply le_n|apply le_S, le_n|exact (Cs 102 fam_f)].
  - exact (famst_ext (famst_push _ _ _ _ C) (Cs 101 fam_e)).
Qed.

(* closing a construct: its label, the innermost open one of its family, is popped and defined *)
Lemma Good_if_end s u s' : Good s -> cv_if_end wstate bytes batch_conv s = TOk u s' -> Good s'.
Proof.
  intros [(A & B & C) Cl] H. cbn [batch_conv cv_if_end] in H.
  destruct (rev (w_ifs s)) as [|x rest] eqn:R; [discriminate|]. apply TOk_inj in H. subst s'. apply rev_hd_snoc in R.
  rewrite R in A. apply famst_last in A as (A & N & k0 & -> & Hk & Z).
  destruct (define_label [BGoto (lab 105 k0); BClose] 105 k0 s eq_refl) as (g & pf & fc & E & Cs).
  change (w_adds [_; _; _] s) with (w_add (BLabel (lab 105 k0)) (w_adds [BGoto (lab 105 k0); BClose] s)). rewrite E.
  split; [|exact Cl]. unfold Inv. cbn [w_with_stacks w_with_code w_if_counter w_for_counter w_ifs w_end_labels].
  rewrite R. unfold pop. rewrite removelast_last. split; [|split].
  - exact (famst_def 105 _ _ _ _ _ k0 A Z N Hk (le_n _) (Cs 105 fam_i)).
  - exact (famst_ext B (Cs 102 fam_f)).
  - exact (famst_ext C (Cs 101 fam_e)).
Qed.

Lemma Good_for_end s u s' : Good s -> cv_for_end wstate bytes batch_conv s = TOk u s' -> Good s'.
Proof.
  intros G H. cbn [batch_conv cv_for_end] in H.
  destruct (rev (w_fors s)) as [|label frest]; [discriminate|].
  destruct (rev (w_end_labels s)) as [|x rest] eqn:R; [discriminate|]. apply TOk_inj in H. subst s'. apply rev_hd_snoc in R.
  apply (Good_calm s (w_adds [BGoto label; BClose] s)) in G; [|auto with calm].
  destruct (w_adds_code [BGoto label; BClose] s) as (g1 & pf1 & fc1 & E1). rewrite E1 in *. clear E1. destruct G as [(A & B & C) Cl].
  cbn [w_with_code w_end_labels] in C. rewrite R in C. apply famst_last in C as (C & N & k0 & -> & Hk & Z).
  set (s2 := w_with_stacks _ _ _ _ _ _).
  destruct (define_label [] 101 k0 s2 eq_refl) as (g & pf & fc & E & Cs). change (w_adds [] s2) with s2 in E. rewrite E.
  split; [|exact Cl]. unfold Inv, s2. cbn [w_with_stacks w_with_code w_if_counter w_for_counter w_ifs w_end_labels].
  rewrite R. unfold pop. rewrite removelast_last. split; [|split].
  - exact (famst_ext A (Cs 105 fam_i)).
  - exact (famst_ext B (Cs 102 fam_f)).
  - exact (famst_def 101 _ _ _ _ _ k0 C Z N Hk (le_n _) (Cs 101 fam_e)).
Qed.

Theorem batch_good_body : forall body, names_ok_all plain_name body = true -> pres Good (block_fix (t_stmt batch_conv) body).
Proof.
  apply program_body_preserves; clear;
    cbn [batch_conv cv_string cv_var_definition cv_slice_assignment cv_func_start cv_func_end cv_return cv_if_start cv_if_end
         cv_elseif_start cv_else_start cv_for_start cv_for_incr_start cv_for_incr_end cv_for_condition cv_for_end cv_break cv_continue
         cv_print cv_panic cv_write_file cv_nop cv_unary cv_binary cv_comparison cv_logical cv_slice_instantiation cv_slice_evaluation
         cv_slice_len cv_string_subscript cv_string_len cv_func_call cv_app_call cv_input cv_copy cv_exists cv_read_file
         w_next_helper snd].
  - (* string *) intros b s. apply Good_calm. auto with calm.
  - (* var_definition *) intros n v g s. apply Good_calm. auto with calm.
  - (* slice_assignment *) intros n i v d g s. apply Good_calm. auto with calm.
  - (* func_start *) intros n ps rs s Hp. apply Good_calm. apply plain_no_fam in Hp.
    apply fold_indexed_inv; [auto with calm|]. cbn [w_adds fold_left]. auto with calm.
  - (* func_end *) intro s. apply Good_res. destruct (rev (w_funcs s)); cbn [calm_res]; auto 6 with calm.
  - (* return *) intros vs s. apply Good_res. destruct (rev (w_funcs s)); [exact I|]. apply c_add; [|reflexivity].
    apply fold_indexed_inv; auto with calm.
  - (* if_start *) exact Good_if_start.
  - (* if_end *) exact Good_if_end.
  - (* elseif_start *) intros c s. apply Good_res. destruct (rev (w_ifs s)); cbn [calm_res]; auto with calm.
  - (* else_start *) intro s. apply Good_res. destruct (rev (w_ifs s)); cbn [calm_res]; auto with calm.
  - (* for_start *) exact Good_for_start.
  - (* for_incr_start *) intro s. apply Good_res. cbn [calm_res]. auto with calm.
  - (* for_incr_end *) intro s. apply Good_res. cbn [calm_res]. auto with calm.
  - (* for_condition *) intros c s. apply Good_calm. auto with calm.
  - (* for_end *) exact Good_for_end.
  - (* break *) intro s. apply Good_res. destruct (rev (w_end_labels s)); cbn [calm_res]; auto with calm.
  - (* continue *) intro s. apply Good_res. destruct (rev (w_fors s)); cbn [calm_res]; auto with calm.
  - (* print *) intros vs s. apply Good_calm. auto with calm.
  - (* panic *) intros v s. apply Good_calm. auto with calm.
  - (* write_file *) intros p d a s. apply Good_calm. auto with calm.
  - (* nop *) intro s. apply Good_calm. auto with calm.
  - (* unary *) intros v s. apply Good_calm. auto with calm.
  - (* binary *) intros l op r t s. apply Good_res. destruct (is_slice t), (dt t), op; cbn [calm_res]; auto with calm.
  - (* comparison *) intros l op r t s. apply Good_res. destruct (wcmp_text t op) as [[o qd]|]; cbn [calm_res]; auto with calm.
  - (* logical *) intros l op r s. apply Good_calm. auto with calm.
  - (* slice_instantiation *) intros vs s. apply Good_calm.
    apply fold_indexed_inv; auto 7 with calm.
  - (* slice_evaluation *) intros a b s. apply Good_calm. auto with calm.
  - (* slice_len *) intros a s. apply Good_calm. auto with calm.
  - (* string_subscript *) intros a b c s. apply Good_calm. auto with calm.
  - (* string_len *) intros a s. apply Good_calm. auto with calm.
  - (* func_call *) intros n vs rs u s. apply Good_calm. destruct u; cbn [snd]; [|auto with calm].
    pose proof (c_rets s rs [] (w_call n vs [] s) 0%nat (c_call _ _ _ _ _ (calm_refl s))) as Q.
    destruct (fold_left _ rs ([], w_call n vs [] s, 0%nat)) as [[vals s2] k]. exact Q.
  - (* app_call *) intros cs u s. apply Good_calm. destruct u; cbn [snd]; auto 9 with calm.
  - (* input *) intros p b s. apply Good_calm. auto with calm.
  - (* copy *) intros n v g s. apply Good_calm. auto 7 with calm.
  - (* exists *) intros p s. apply Good_calm. auto with calm.
  - (* read_file *) intros p s. apply Good_calm. auto 7 with calm.
Qed.

Lemma emit_batch_good body script st : emit_batch body = TOk script st -> names_ok_all plain_name body = true ->
  exists s, Good s /\ st = cv_program_end wstate bytes batch_conv s.
Proof. intros H Hn. exact (transpile_program_pres batch_conv Good _ _ _ _ (batch_good_body body Hn) Good_start H). Qed.

Lemma helpers_no_fam s : forallb no_fam_label (helpers_of s) = true.
Proof. unfold helpers_of. cbv zeta. repeat apply forallb_app_intro. all: apply forallb_opt; reflexivity. Qed.

Theorem batch_script_family_labels_unique body script st :
  emit_batch body = TOk script st -> names_ok_all plain_name body = true ->
  forall c k, fam c -> (cnt (lab c k) (batch_lines st) <= 1)%nat.
Proof.
  intros H Hn c k Hc. destruct (emit_batch_good body script st H Hn) as (s & [I (Cs & Ch & Ce)] & ->).
  unfold batch_lines. cbn [batch_conv cv_program_end w_start w_helper w_funcs_code w_global w_end]. rewrite Ch, Ce. cbn [app].
  rewrite !cnt_app, cnt_concat_rev, (cnt_no_fam c k (w_start s) Hc Cs), (cnt_no_fam c k (helpers_of s) Hc (helpers_no_fam s)),
    (cnt_no_fam c k [BLabel (bs "end"); BT (bs "endlocal & exit /B %_e%")] Hc eq_refl).
  pose proof (Inv_once s I c k Hc) as Hcode. unfold cntS, code in Hcode. rewrite cnt_app in Hcode. lia.
Qed.
