(* A generic invariant theorem for the traversal of transpiler.go: a predicate on converter states that
   every converter method preserves is preserved by the translation of every expression, statement and
   program, at any nesting depth.  (The method for function definitions may rely on a condition on the
   function's name, which the program must then satisfy throughout.) *)
From Verif Require Import Base.Bytestr Front.Ast Front.AstInd Back.Transpile.
From Coq Require Import ZArith.
Open Scope N_scope.

(* by injection: inversion normalises both sides, which is slow on large states *)
Lemma TOk_inj {S A} (a a' : A) (s s' : S) : TOk a s = TOk a' s' -> s = s'.
Proof. intro H. injection H as _ E. exact E. Qed.

(* the converters' loops over numbered arguments *)
Lemma fold_indexed_inv {S X} (P : S -> Prop) (step : S -> nat -> X -> S) : (forall s i x, P s -> P (step s i x)) ->
  forall xs s i, P s -> P (fst (fold_left (fun (acc : S * nat) x => let '(st, j) := acc in (step st j x, Datatypes.S j)) xs (s, i))).
Proof. intro H. induction xs as [|x r IH]; intros s i Hs; [exact Hs|]. cbn [fold_left]. apply IH, H, Hs. Qed.

Section Inv.
  Context {St V : Type}.
  Variable C : converter St V.
  Variable P : St -> Prop.
  Variable pname : bytes -> bool.

  Fixpoint names_ok (st : stmt) : bool :=
    let all := fix all (l : list stmt) : bool := match l with [] => true | x :: r => names_ok x && all r end in
    match st with
    | SFunc n _ _ body _ => pname n && all body
    | SIf brs els =>
        (fix ab (l : list (expr * list stmt)) : bool := match l with [] => true | b :: r => all (snd b) && ab r end) brs && all els
    | SFor i _ n body =>
        (match i with Some x => names_ok x | None => true end) && (match n with Some x => names_ok x | None => true end) && all body
    | _ => true
    end.
  Fixpoint names_ok_all (l : list stmt) : bool := match l with [] => true | x :: r => names_ok x && names_ok_all r end.

  Hypothesis H_string : forall b s, P s -> P (snd (cv_string St V C b s)).
  Hypothesis H_var_definition : forall n v g s, P s -> P (cv_var_definition St V C n v g s).
  Hypothesis H_slice_assignment : forall n i v d g s, P s -> P (cv_slice_assignment St V C n i v d g s).
  Hypothesis H_func_start : forall n ps rs s, pname n = true -> P s -> P (cv_func_start St V C n ps rs s).
  Hypothesis H_func_end : forall s u s', P s -> cv_func_end St V C s = TOk u s' -> P s'.
  Hypothesis H_return : forall vs s u s', P s -> cv_return St V C vs s = TOk u s' -> P s'.
  Hypothesis H_if_start : forall c s, P s -> P (cv_if_start St V C c s).
  Hypothesis H_if_end : forall s u s', P s -> cv_if_end St V C s = TOk u s' -> P s'.
  Hypothesis H_elseif_start : forall c s u s', P s -> cv_elseif_start St V C c s = TOk u s' -> P s'.
  Hypothesis H_else_start : forall s u s', P s -> cv_else_start St V C s = TOk u s' -> P s'.
  Hypothesis H_for_start : forall s, P s -> P (cv_for_start St V C s).
  Hypothesis H_for_incr_start : forall s u s', P s -> cv_for_incr_start St V C s = TOk u s' -> P s'.
  Hypothesis H_for_incr_end : forall s u s', P s -> cv_for_incr_end St V C s = TOk u s' -> P s'.
  Hypothesis H_for_condition : forall c s, P s -> P (cv_for_condition St V C c s).
  Hypothesis H_for_end : forall s u s', P s -> cv_for_end St V C s = TOk u s' -> P s'.
  Hypothesis H_break : forall s u s', P s -> cv_break St V C s = TOk u s' -> P s'.
  Hypothesis H_continue : forall s u s', P s -> cv_continue St V C s = TOk u s' -> P s'.
  Hypothesis H_print : forall vs s, P s -> P (cv_print St V C vs s).
  Hypothesis H_panic : forall v s, P s -> P (cv_panic St V C v s).
  Hypothesis H_write_file : forall p d a s, P s -> P (cv_write_file St V C p d a s).
  Hypothesis H_nop : forall s, P s -> P (cv_nop St V C s).
  Hypothesis H_unary : forall v s, P s -> P (snd (cv_unary St V C v s)).
  Hypothesis H_binary : forall l op r t s v s', P s -> cv_binary St V C l op r t s = TOk v s' -> P s'.
  Hypothesis H_comparison : forall l op r t s v s', P s -> cv_comparison St V C l op r t s = TOk v s' -> P s'.
  Hypothesis H_logical : forall l op r s, P s -> P (snd (cv_logical St V C l op r s)).
  Hypothesis H_slice_instantiation : forall vs s, P s -> P (snd (cv_slice_instantiation St V C vs s)).
  Hypothesis H_slice_evaluation : forall a b s, P s -> P (snd (cv_slice_evaluation St V C a b s)).
  Hypothesis H_slice_len : forall a s, P s -> P (snd (cv_slice_len St V C a s)).
  Hypothesis H_string_subscript : forall a b c s, P s -> P (snd (cv_string_subscript St V C a b c s)).
  Hypothesis H_string_len : forall a s, P s -> P (snd (cv_string_len St V C a s)).
  Hypothesis H_func_call : forall n vs rs u s, P s -> P (snd (cv_func_call St V C n vs rs u s)).
  Hypothesis H_app_call : forall cs u s, P s -> P (snd (cv_app_call St V C cs u s)).
  Hypothesis H_input : forall p b s, P s -> P (snd (cv_input St V C p b s)).
  Hypothesis H_copy : forall n v g s, P s -> P (snd (cv_copy St V C n v g s)).
  Hypothesis H_exists : forall p s, P s -> P (snd (cv_exists St V C p s)).
  Hypothesis H_read_file : forall p s, P s -> P (snd (cv_read_file St V C p s)).

  Definition pres {A} (m : M (St:=St) A) : Prop := forall s a s', P s -> m s = TOk a s' -> P s'.

  Lemma pres_read {A} (f : St -> A) : pres (fun s => TOk (f s) s).
  Proof. intros s a s' H E. inversion E; subst. exact H. Qed.

  Lemma pres_ret {A} (a : A) : pres (mret a).
  Proof. exact (pres_read (fun _ => a)). Qed.

  Lemma pres_err {A} : pres (@merr St A).
  Proof. intros s a s' _ E. discriminate. Qed.

  Lemma pres_panic {A} : pres (fun _ => @TPanic St A).
  Proof. intros s a s' _ E. discriminate. Qed.

  Lemma pres_bind {A B} (m : M A) (f : A -> M B) : pres m -> (forall a, pres (f a)) -> pres (mbind m f).
  Proof.
    intros Hm Hf s b s' H E. unfold mbind in E. destruct (m s) as [a s1| |] eqn:Em; try discriminate.
    exact (Hf a s1 b s' (Hm s a s1 H Em) E).
  Qed.

  Lemma pres_lift {A} (f : St -> A * St) : (forall s, P s -> P (snd (f s))) -> pres (lift f).
  Proof. intros Hf s a s' H E. unfold lift in E. specialize (Hf s H). destruct (f s) as [x y]. inversion E; subst. exact Hf. Qed.

  Lemma pres_upd (f : St -> St) : (forall s, P s -> P (f s)) -> pres (upd f).
  Proof. intros Hf s a s' H E. unfold upd in E. inversion E; subst. apply Hf. exact H. Qed.

  Lemma pres_tres {A} (m : M A) : (forall s a s', P s -> m s = TOk a s' -> P s') -> pres m.
  Proof. intro H. exact H. Qed.

  Lemma pres_map {A B} (m : M A) (g : A -> B) : pres m -> pres (mbind m (fun v => mret (g v))).
  Proof. intro H. apply pres_bind; [exact H|]. intro a. apply pres_ret. Qed.

  (* t_expr's local fix args_of, which evaluates an argument list, under a name: after cbn [t_expr] the cases for calls
     and slice literals show it unfolded, and a lemma can only speak of it through this definition *)
  Definition args_of_fix :=
    fix args_of (es : list expr) : M (list V) :=
      match es with
      | [] => mret []
      | a :: r => mbind (t_expr C a true) (fun va => mbind (args_of r) (fun vr => mret (first_value C va :: vr)))
      end.

  Lemma pres_args (es : list expr) : Forall (fun e => forall used, pres (t_expr C e used)) es -> pres (args_of_fix es).
  Proof.
    induction es as [|a r IH]; intro H; cbn [args_of_fix]; [apply pres_ret|].
    inversion H as [|x l Ha Hr]; subst. apply pres_bind; [apply Ha|]. intro va. exact (pres_map _ _ (IH Hr)).
  Qed.

  Theorem t_expr_preserves : forall e used, pres (t_expr C e used).
  Proof.
    induction e using expr_ind'; intro used; cbn [t_expr].
    - apply pres_ret.
    - apply pres_ret.
    - apply pres_map, pres_lift, H_string.
    - apply pres_bind; [apply IHe|]. intro vx. apply pres_map, pres_lift, H_unary.
    - apply pres_bind; [apply IHe1|]. intro vl. apply pres_bind; [apply IHe2|]. intro vr. apply pres_map. exact (H_binary _ _ _ _).
    - apply pres_bind; [apply IHe1|]. intro vl. apply pres_bind; [apply IHe2|]. intro vr. apply pres_map. exact (H_comparison _ _ _ _).
    - apply pres_bind; [apply IHe1|]. intro vl. apply pres_bind; [apply IHe2|]. intro vr. apply pres_map, pres_lift, H_logical.
    - apply pres_read.
    - apply IHe.
    - (* ECall *)
      apply pres_bind; [exact (pres_args args H)|]. intro vs.
      apply pres_bind; [apply pres_lift, H_func_call|]. intro res.
      destruct (used && negb (Nat.eqb (length res) (length rets))); [apply pres_err|apply pres_ret].
    - (* EApp *)
      apply pres_bind; [|intro cs; apply pres_lift, H_app_call].
      induction calls as [|[n args] r IHc]; [apply pres_ret|].
      inversion H as [|x l Ha Hr]; subst. cbn [snd] in Ha.
      apply pres_bind; [exact (pres_args args Ha)|]. intro vs. exact (pres_map _ _ (IHc Hr)).
    - (* ESliceInst *)
      apply pres_bind; [exact (pres_args vals H)|]. intro vs. apply pres_map, pres_lift, H_slice_instantiation.
    - apply pres_bind; [apply IHe1|]. intro vv. apply pres_bind; [apply IHe2|]. intro vi. apply pres_map, pres_lift, H_slice_evaluation.
    - (* ESubscript *)
      apply pres_bind; [apply IHe2|]. intro va. apply pres_bind; [destruct b as [x|]; [apply H|apply pres_ret]|].
      intro vb. apply pres_bind; [apply IHe1|]. intro vv. apply pres_map, pres_lift, H_string_subscript.
    - apply pres_bind; [apply IHe|]. intro vx. destruct (is_string (type_of e)); apply pres_map, pres_lift; [apply H_string_len|apply H_slice_len].
    - destruct p as [x|]; [apply pres_bind; [apply H|]; intro vp|]; apply pres_map, pres_lift, H_input.
    - apply pres_bind; [apply IHe|]. intro vs. apply pres_map, pres_lift, H_copy.
    - apply pres_map, IHe.
    - apply pres_bind; [apply IHe|]. intro vp. apply pres_map, pres_lift, H_exists.
    - destruct (is_string (type_of e)); [|apply pres_err].
      apply pres_bind; [apply IHe|]. intro vp. apply pres_map, pres_lift, H_read_file.
  Qed.

  Lemma pres_eval_values many : forall es i, pres (eval_values C many es i).
  Proof.
    induction es as [|e r IH]; intro i; cbn [eval_values]; [apply pres_ret|].
    apply pres_bind; [apply t_expr_preserves|]. intro ve. apply pres_bind.
    - destruct many; [|apply pres_ret].
      apply pres_bind; [apply pres_upd, H_var_definition|]. intros _. apply pres_read.
    - intro v. apply pres_map, IH.
  Qed.

  Lemma pres_store_values : forall vars vals, pres (store_values C vars vals).
  Proof.
    induction vars as [|v r IH]; intro vals; cbn [store_values]; [apply pres_ret|].
    destruct vals as [|x xr]; [apply pres_panic|].
    apply pres_bind; [apply pres_upd, H_var_definition|]. intros _. apply IH.
  Qed.

  Lemma pres_assign_values vars es : pres (assign_values C vars es).
  Proof.
    unfold assign_values. destruct (length es <? length vars)%nat; [apply pres_panic|].
    apply pres_bind; [apply pres_eval_values|]. intro vs. apply pres_store_values.
  Qed.

  Lemma pres_assign_call vars call : pres (assign_call C vars call).
  Proof.
    unfold assign_call. apply pres_bind; [apply t_expr_preserves|]. intro vs.
    destruct (Nat.eqb (length vs) (length vars)); [apply pres_store_values|apply pres_err].
  Qed.

  (* likewise t_stmt's local fix block, with the translation of one statement as a parameter *)
  Definition block_fix (tst : stmt -> M (St:=St) unit) :=
    fix block (b : list stmt) : M (St:=St) unit :=
      match b with [] => mret tt | s :: r => mbind (tst s) (fun _ => block r) end.

  Lemma pres_block_fix (b : list stmt) :
    Forall (fun st => names_ok st = true -> pres (t_stmt C st)) b -> names_ok_all b = true -> pres (block_fix (t_stmt C) b).
  Proof.
    induction b as [|x r IH]; intros HF Hn; cbn [block_fix]; [apply pres_ret|].
    inversion HF as [|y l Hx Hr]; subst. cbn [names_ok_all] in Hn. apply andb_true_iff in Hn as [Hnx Hnr].
    apply pres_bind; [exact (Hx Hnx)|]. intros _. exact (IH Hr Hnr).
  Qed.

  Lemma pres_t_block (b : list stmt) :
    Forall (fun st => names_ok st = true -> pres (t_stmt C st)) b -> names_ok_all b = true ->
    pres (match b with [] => upd (cv_nop St V C) | _ => block_fix (t_stmt C) b end).
  Proof. intros HF Hn. destruct b as [|x r]; [apply pres_upd, H_nop|]. apply pres_block_fix; assumption. Qed.

  Lemma names_all_eq (l : list stmt) :
    (fix all (l : list stmt) : bool := match l with [] => true | x :: r => names_ok x && all r end) l = names_ok_all l.
  Proof. reflexivity. Qed.

  Theorem t_stmt_preserves : forall st, names_ok st = true -> pres (t_stmt C st).
  Proof.
    induction st using stmt_ind'; intro Hn; cbn [t_stmt].
    - apply pres_assign_values.
    - apply pres_assign_call.
    - apply pres_assign_values.
    - apply pres_assign_call.
    - apply pres_bind; [apply t_expr_preserves|]. intro vi. apply pres_bind; [apply t_expr_preserves|]. intro vv.
      apply pres_bind; [|intro d; apply pres_upd, H_slice_assignment].
      unfold default_of. destruct (dt (type_of x)); try apply pres_err; try apply pres_ret. apply pres_lift, H_string.
    - (* SFunc *)
      cbn [names_ok] in Hn. apply andb_true_iff in Hn as [Hp Hb]. rewrite names_all_eq in Hb.
      apply pres_bind; [apply pres_upd; intros s0; apply H_func_start, Hp|]. intros _.
      apply pres_bind; [exact (pres_t_block body H Hb)|]. intros _. exact H_func_end.
    - (* SReturn *)
      apply pres_bind; [|exact H_return]. apply pres_args, Forall_forall. intros e _. apply t_expr_preserves.
    - (* SIf *)
      destruct brs as [|[c0 b0] elifs]; [apply pres_panic|].
      cbn [names_ok] in Hn. apply andb_true_iff in Hn as [Hbr Hel]. rewrite names_all_eq in Hel.
      apply andb_true_iff in Hbr as [Hb0 Helifs]. cbn [snd] in Hb0. rewrite names_all_eq in Hb0.
      inversion H as [|x l Hx Hl]; subst. cbn [snd] in Hx.
      apply pres_bind; [apply t_expr_preserves|]. intro v0.
      apply pres_bind.
      { clear H Hl Helifs. induction elifs as [|[c b] r IH]; [apply pres_ret|].
        apply pres_bind; [apply t_expr_preserves|]. intro vc. exact (pres_map _ _ IH). }
      intro cs.
      apply pres_bind; [apply pres_upd, H_if_start|]. intros _.
      apply pres_bind; [exact (pres_t_block b0 Hx Hb0)|]. intros _.
      apply pres_bind.
      { clear H. revert cs Hl Helifs. induction elifs as [|[c b] r IH]; intros cs Hl Helifs; [apply pres_ret|].
        destruct cs as [|v vr]; [apply pres_panic|].
        inversion Hl as [|y l2 Hy Hl2]; subst. cbn [snd] in Hy.
        apply andb_true_iff in Helifs as [Hb Hr]. cbn [snd] in Hb. rewrite names_all_eq in Hb.
        apply pres_bind; [exact (H_elseif_start _)|]. intros _.
        apply pres_bind; [exact (pres_t_block b Hy Hb)|]. intros _. exact (IH vr Hl2 Hr). }
      intros _.
      apply pres_bind; [|intros _; exact H_if_end].
      destruct els as [|e0 er]; [apply pres_ret|].
      apply pres_bind; [exact H_else_start|]. intros _. exact (pres_t_block (e0 :: er) H0 Hel).
    - (* SFor *)
      cbn [names_ok] in Hn. apply andb_true_iff in Hn as [Hn1 Hbody]. apply andb_true_iff in Hn1 as [Hi Hinc].
      rewrite names_all_eq in Hbody.
      apply pres_bind; [destruct i as [x|]; [apply H, Hi|apply pres_ret]|]. intros _.
      apply pres_bind; [apply pres_upd, H_for_start|]. intros _.
      apply pres_bind.
      { destruct n as [x|]; [|apply pres_ret].
        apply pres_bind; [exact H_for_incr_start|]. intros _.
        apply pres_bind; [apply H0, Hinc|]. intros _. exact H_for_incr_end. }
      intros _.
      apply pres_bind; [apply t_expr_preserves|]. intro vc.
      apply pres_bind; [apply pres_upd, H_for_condition|]. intros _.
      apply pres_bind; [exact (pres_t_block body H1 Hbody)|]. intros _. exact H_for_end.
    - exact H_break.
    - exact H_continue.
    - (* SPrint *)
      apply pres_bind; [|intro vs; apply pres_upd, H_print].
      clear Hn. induction es as [|e r IH]; [apply pres_ret|].
      apply pres_bind; [apply t_expr_preserves|]. intro ve. exact (pres_map _ _ IH).
    - apply pres_bind; [apply t_expr_preserves|]. intro ve. apply pres_upd, H_panic.
    - (* SWrite *)
      destruct (negb (is_string (type_of p))); [apply pres_err|].
      apply pres_bind; [apply t_expr_preserves|]. intro vp.
      destruct (negb (is_string (type_of d))); [apply pres_err|].
      apply pres_bind; [apply t_expr_preserves|]. intro vd.
      destruct (negb (is_bool (type_of a))); [apply pres_err|].
      apply pres_bind; [apply t_expr_preserves|]. intro va. apply pres_upd, H_write_file.
    - apply pres_map, t_expr_preserves.
  Qed.

  Theorem program_body_preserves (body : list stmt) : names_ok_all body = true ->
    pres ((fix go (b : list stmt) : M (St:=St) unit := match b with [] => mret tt | s :: r => mbind (t_stmt C s) (fun _ => go r) end) body).
  Proof. apply pres_block_fix, Forall_forall. intros st _. apply t_stmt_preserves. Qed.
End Inv.

(* The whole program: transpile_program wraps the statements between the two program methods. *)
Lemma transpile_program_pres {St V} (C : converter St V) (P : St -> Prop) init body script st :
  pres P (block_fix (t_stmt C) body) -> P (cv_program_start St V C init) ->
  transpile_program C init body = TOk script st -> exists s, P s /\ st = cv_program_end St V C s.
Proof.
  intros Hb H0 H. unfold transpile_program in H.
  destruct (_ body (cv_program_start St V C init)) as [u s| |] eqn:E; try discriminate.
  exists s. split; [exact (Hb _ u s H0 E)|inversion H; reflexivity].
Qed.

Lemma names_all_true pname l : Forall (fun st => names_ok pname st = true) l -> names_ok_all pname l = true.
Proof. induction l as [|x r IH]; intro H; [reflexivity|]. inversion H as [|y l2 Hx Hr]; subst. cbn [names_ok_all]. rewrite Hx. exact (IH Hr). Qed.

Lemma names_ok_true : forall st, names_ok (fun _ => true) st = true.
Proof.
  induction st using stmt_ind'; try reflexivity.
  - cbn [names_ok]. rewrite names_all_eq. cbn [andb]. apply names_all_true, H.
  - cbn [names_ok]. rewrite names_all_eq. apply andb_true_iff. split; [|apply names_all_true, H0].
    induction brs as [|[c b] r IHr]; [reflexivity|]. inversion H as [|y l Hx Hr]; subst. cbn [snd] in *.
    rewrite names_all_eq. apply andb_true_iff. split; [apply names_all_true, Hx|exact (IHr Hr)].
  - cbn [names_ok]. rewrite names_all_eq. apply andb_true_iff. split; [apply andb_true_iff; split|apply names_all_true, H1].
    + destruct i; [exact H|reflexivity].
    + destruct n; [exact H0|reflexivity].
Qed.
