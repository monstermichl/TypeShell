(* Name mangling of the Bash converter: locals of different functions never share a shell variable. *)
From Verif Require Import Base.Bytestr Base.DecFacts Back.BashLines Back.Transpile Back.BashConv Back.TraverseInv.
From Coq Require Import PeanoNat.
Open Scope N_scope.

Definition mangled (k : nat) (name : bytes) : bytes := bs "f" ++ dec_nat k ++ bs "_" ++ name.

Lemma var_name_local s name : (0 < b_funcs s)%nat -> var_name s name false = mangled (b_func_counter s) name.
Proof. intro H. unfold var_name, mangled. apply Nat.ltb_lt in H. rewrite H. reflexivity. Qed.

Lemma var_name_global s name : var_name s name true = name.
Proof. unfold var_name. rewrite andb_false_r. reflexivity. Qed.

Lemma var_name_toplevel s name g : b_funcs s = 0%nat -> var_name s name g = name.
Proof. intro H. unfold var_name. rewrite H. reflexivity. Qed.

Lemma span_mangled k name : span is_digit (dec_nat k ++ bs "_" ++ name) = (dec_nat k, bs "_" ++ name).
Proof. apply span_all; [apply dec_N_digits|reflexivity]. Qed.

Theorem mangled_inj k1 k2 n1 n2 : mangled k1 n1 = mangled k2 n2 -> k1 = k2 /\ n1 = n2.
Proof.
  unfold mangled. intro H. apply (app_inv_head (bs "f")), (f_equal (span is_digit)) in H. rewrite !span_mangled in H.
  inversion H as [[A B]]. apply dec_N_inj, Nat2N.inj in A. split; [exact A|reflexivity].
Qed.

(* every function definition gets a number no earlier definition had *)
Lemma func_start_counter name ps rets s :
  b_func_counter (cv_func_start bstate atom bash_conv name ps rets s) = S (b_func_counter s).
Proof.
  unfold bash_conv. cbn [cv_func_start].
  apply (fold_indexed_inv (fun st => b_func_counter st = S (b_func_counter s)) (fun st i p => add_line (LLocalParam (var_name st p false) i) st));
    [intros st i p H; exact H|reflexivity].
Qed.
