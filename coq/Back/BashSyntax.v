(* A syntax checker for the line language of the Bash converter: compound commands must be closed by
   their own terminator and every compound list (then/else part, loop body, function body) must
   contain at least one command.  It is the model of what `bash -n` demands of these scripts
   (validated against the real `bash -n` by the correspondence runs). *)
From Verif Require Import Base.Bytestr Back.BashLines.
Open Scope N_scope.

Inductive frame :=
| FTop (nonempty : bool)
| FIf (nonempty : bool) (in_else : bool)
| FWhile (nonempty : bool)
| FFunc (nonempty : bool).

Definition mark1 (f : frame) : frame :=
  match f with
  | FTop _ => FTop true
  | FIf _ e => FIf true e
  | FWhile _ => FWhile true
  | FFunc _ => FFunc true
  end.

(* a complete command has been seen in the innermost open list *)
Definition mark (st : list frame) : list frame :=
  match st with f :: r => mark1 f :: r | [] => [] end.

Definition check_line (l : line) (st : list frame) : option (list frame) :=
  match l with
  | LIf w _ =>
      if beq w (bs "if") then Some (FIf false false :: st)
      else match st with
           | FIf true false :: r => Some (FIf false false :: r)    (* elif: the part before it is non-empty, no else yet *)
           | _ => None
           end
  | LIncrGuard _ => Some (FIf false false :: st)
  | LElse => match st with FIf true false :: r => Some (FIf false true :: r) | _ => None end
  | LFi => match st with FIf true _ :: r => Some (mark r) | _ => None end
  | LWhile => Some (FWhile false :: st)
  | LDone => match st with FWhile true :: r => Some (mark r) | _ => None end
  | LFuncOpen _ => Some (FFunc false :: st)
  | LClose => match st with FFunc true :: r => Some (mark r) | _ => None end
  | LShebang | LHelperComment _ => Some st                      (* comments *)
  | _ => match st with [] => None | _ => Some (mark st) end      (* simple commands *)
  end.

Fixpoint check (ls : list line) (st : list frame) : option (list frame) :=
  match ls with
  | [] => Some st
  | l :: r => match check_line l st with Some st' => check r st' | None => None end
  end.

Lemma check_app a b st : check (a ++ b) st = match check a st with Some st' => check b st' | None => None end.
Proof. revert st; induction a as [|l a IH]; intro st; simpl; [reflexivity|]. destruct (check_line l st); [apply IH|reflexivity]. Qed.

Definition is_simple (l : line) : bool :=
  match l with
  | LIf _ _ | LIncrGuard _ | LElse | LFi | LWhile | LDone | LFuncOpen _ | LClose | LShebang | LHelperComment _ => false
  | _ => true
  end.

Lemma mark_idem st : mark (mark st) = mark st.
Proof. destruct st as [|[] r]; reflexivity. Qed.

Lemma check_simple l st : is_simple l = true -> st <> [] -> check_line l st = Some (mark st).
Proof. intros H Hn. destruct l; try discriminate; simpl; destruct st; congruence. Qed.

Lemma mark_nonnil st : st <> [] -> mark st <> [].
Proof. destruct st as [|[] r]; simpl; congruence. Qed.

(* zero or more complete commands: from any non-empty stack they lead back to it, marked if there was a command *)
Definition cmds (ls : list line) : Prop :=
  forall st, st <> [] -> check ls st = Some (match ls with [] => st | _ => mark st end).

Lemma cmds_nil : cmds [].
Proof. intros st _. reflexivity. Qed.

Lemma cmds_app a b : cmds a -> cmds b -> cmds (a ++ b).
Proof.
  intros Ha Hb st Hn. rewrite check_app, Ha by exact Hn.
  destruct a as [|x a]; [apply Hb, Hn|]. rewrite Hb by (apply mark_nonnil, Hn).
  destruct b; simpl; [reflexivity|rewrite mark_idem; reflexivity].
Qed.

Lemma cmds_simple ls : forallb is_simple ls = true -> cmds ls.
Proof.
  induction ls as [|l ls IH]; intro H; [apply cmds_nil|]. simpl in H. apply andb_true_iff in H as [Hl Hls].
  apply (cmds_app [l]); [|exact (IH Hls)]. intros st Hn. cbn [check]. rewrite check_simple by assumption. reflexivity.
Qed.

Lemma cmds_check ls st : cmds ls -> st <> [] -> exists st', check ls st = Some st' /\ st' <> [] /\ mark st' = mark st.
Proof.
  intros K Hn. rewrite K by exact Hn. destruct ls; [eauto|].
  exists (mark st). split; [reflexivity|]. split; [apply mark_nonnil, Hn|apply mark_idem].
Qed.

(* one or more complete commands: what a then-part, a loop body or a function body must be *)
Definition block (ls : list line) : Prop := ls <> [] /\ cmds ls.

Lemma block_check ls st : block ls -> st <> [] -> check ls st = Some (mark st).
Proof. intros [N K] Hn. rewrite K by exact Hn. destruct ls; [congruence|reflexivity]. Qed.

Lemma block_intro ls : ls <> [] -> (forall st, st <> [] -> check ls st = Some (mark st)) -> block ls.
Proof. intros N K. split; [exact N|]. intros st Hn. rewrite K by exact Hn. destruct ls; [congruence|reflexivity]. Qed.

(* zero or more "elif c; then block" parts *)
Definition is_chain (ls : list line) : Prop := forall r, check ls (FIf true false :: r) = Some (FIf true false :: r).
(* nothing, or "else block" *)
Definition is_else (ls : list line) : Prop := forall r, exists e, check ls (FIf true false :: r) = Some (FIf true e :: r).
(* nothing, or the guarded increment at the head of a loop body *)
Definition is_incr (ls : list line) : Prop := forall r, exists w, check ls (FWhile false :: r) = Some (FWhile w :: r).

Lemma chain_nil : is_chain []. Proof. intro r. reflexivity. Qed.

Lemma chain_cons c b rest : block b -> is_chain rest -> is_chain ([LIf (bs "elif") c] ++ b ++ rest).
Proof.
  intros Hb Hr r. cbn [app check]. unfold check_line at 1.
  assert (beq (bs "elif") (bs "if") = false) as -> by reflexivity.
  rewrite check_app, (block_check _ _ Hb) by discriminate. cbn [mark mark1]. apply Hr.
Qed.

Lemma else_nil : is_else []. Proof. intro r. exists false. reflexivity. Qed.

Lemma else_some b : block b -> is_else ([LElse] ++ b).
Proof. intros Hb r. exists true. cbn [app check check_line]. rewrite (block_check _ _ Hb) by discriminate. reflexivity. Qed.

Lemma incr_nil : is_incr []. Proof. intro r. exists false. reflexivity. Qed.

Lemma incr_some flag b f2 : block b -> is_incr ([LIncrGuard flag] ++ b ++ [LFi; LFlagSet f2]).
Proof.
  intros Hb r. exists true. cbn [app check check_line]. rewrite check_app, (block_check _ _ Hb) by discriminate. reflexivity.
Qed.

Lemma if_shape conds c b0 chain els :
  cmds conds -> block b0 -> is_chain chain -> is_else els ->
  block (conds ++ [LIf (bs "if") c] ++ b0 ++ chain ++ els ++ [LFi]).
Proof.
  intros Hc Hb Hch Hel. apply block_intro; [destruct conds; discriminate|].
  intros st Hn. rewrite check_app. destruct (cmds_check conds st Hc Hn) as (st1 & E1 & N1 & M1). rewrite E1.
  cbn [app check]. unfold check_line at 1. rewrite beq_refl.
  rewrite check_app, (block_check _ _ Hb) by discriminate. cbn [mark mark1].
  rewrite check_app, Hch. rewrite check_app. destruct (Hel st1) as (e & Ee). rewrite Ee.
  cbn [check check_line]. rewrite M1. reflexivity.
Qed.

Lemma for_shape init flag incr cond c body :
  cmds init -> is_incr incr -> cmds cond -> block body ->
  block (init ++ [LForInit flag; LWhile] ++ incr ++ cond ++ [LBreakUnless c] ++ body ++ [LDone]).
Proof.
  intros Hi Hinc Hc Hb. apply block_intro; [destruct init; discriminate|].
  intros st Hn. rewrite check_app. destruct (cmds_check init st Hi Hn) as (st0 & E0 & N0 & M0). rewrite E0.
  cbn [app check]. rewrite (check_simple (LForInit flag)) by (try reflexivity; exact N0).
  cbn [check_line]. rewrite check_app. destruct (Hinc (mark st0)) as (w & Ew). rewrite Ew. rewrite check_app.
  destruct (cmds_check cond (FWhile w :: mark st0) Hc) as (st2 & E2 & N2 & M2); [discriminate|]. rewrite E2.
  cbn [app check]. rewrite (check_simple (LBreakUnless c)) by (try reflexivity; exact N2).
  rewrite M2. cbn [mark mark1]. rewrite check_app, (block_check _ _ Hb) by discriminate. cbn [mark mark1 check check_line].
  rewrite mark_idem, M0. reflexivity.
Qed.

Lemma func_shape name params body : cmds params -> block body -> block ([LFuncOpen name] ++ params ++ body ++ [LClose]).
Proof.
  intros Hp Hb. apply block_intro; [discriminate|]. intros st Hn. cbn [app check check_line]. rewrite check_app.
  destruct (cmds_check params (FFunc false :: st) Hp) as (st1 & E1 & N1 & M1); [discriminate|]. rewrite E1.
  rewrite check_app, (block_check _ _ Hb) by exact N1. rewrite M1. cbn [mark mark1 check check_line]. reflexivity.
Qed.

Definition well_formed (ls : list line) : bool :=
  match check ls [FTop false] with Some [FTop _] => true | _ => false end.
