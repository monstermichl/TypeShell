(* write / read / exists at the level of the emitted Bash lines, over files as byte strings:
     write        printf '%s\n' "s" >  "p"      (the content, one newline)
     append       printf '%s\n' "s" >> "p"
     read         $(cat -- "p")                 (command substitution drops ALL trailing newlines)
     exists       [ -e "p" ]
   and the proof that each of them implements the line store of the reference semantics (Sem/Src.v: a file
   is a list of lines, read returns them joined by newlines) -- provided no written string is empty or ends
   in a newline.  Properties/C17.v takes this to every history of operations and shows that the excluded
   corner fails. *)
From Verif Require Import Base.Bytestr Sem.Src.
Open Scope N_scope.

Definition fsys := list (bytes * bytes).

Fixpoint fget (k : bytes) (f : fsys) : option bytes :=
  match f with [] => None | (k', v) :: r => if beq k k' then Some v else fget k r end.
Fixpoint fset (k v : bytes) (f : fsys) : fsys :=
  match f with [] => [(k, v)] | (k', v') :: r => if beq k k' then (k, v) :: r else (k', v') :: fset k v r end.

Fixpoint drop_nl (b : bytes) : bytes := match b with 10 :: r => drop_nl r | _ => b end.
Definition strip_nl (b : bytes) : bytes := rev (drop_nl (rev b)).

Inductive fsop := OWrite (p s : bytes) (app : bool) | ORead (p : bytes) | OExists (p : bytes).

Definition bool_line (b : bool) : bytes := if b then [49] else [48].

(* the emitted lines under Bash; the second component is the value handed back to the program *)
Definition sh_step (f : fsys) (o : fsop) : fsys * option bytes :=
  match o with
  | OWrite p s app =>
      let old := if app then match fget p f with Some c => c | None => [] end else [] in
      (fset p (old ++ s ++ [10]) f, None)
  | ORead p => (f, Some (match fget p f with Some c => strip_nl c | None => [] end))
  | OExists p => (f, Some (bool_line (match fget p f with Some _ => true | None => false end)))
  end.

(* the reference semantics (the same functions Sem/Src.v uses for SWrite / ERead / EExists) *)
Definition store := list (bytes * list bytes).
Definition spec_step (st : store) (o : fsop) : store * option bytes :=
  match o with
  | OWrite p s app =>
      let old := match eget_file p st with Some l => l | None => [] end in
      (eset_file p (if app then old ++ [s] else [s]) st, None)
  | ORead p => (st, Some (match eget_file p st with Some ls => lines_text ls | None => [] end))
  | OExists p => (st, Some (bool_line (match eget_file p st with Some _ => true | None => false end)))
  end.

Fixpoint run_sh (f : fsys) (ops : list fsop) : fsys * list (option bytes) :=
  match ops with
  | [] => (f, [])
  | o :: r => let '(f1, out) := sh_step f o in let '(f2, outs) := run_sh f1 r in (f2, out :: outs)
  end.
Fixpoint run_spec (st : store) (ops : list fsop) : store * list (option bytes) :=
  match ops with
  | [] => (st, [])
  | o :: r => let '(s1, out) := spec_step st o in let '(s2, outs) := run_spec s1 r in (s2, out :: outs)
  end.

(* the bytes of a file holding these lines *)
Definition content (ls : list bytes) : bytes := concat (map (fun l => l ++ [10]) ls).

(* a line that read can give back: not empty, no newline at its end *)
Definition good (s : bytes) : bool := match rev s with [] => false | c :: _ => negb (c =? 10) end.
Definition op_good (o : fsop) : bool := match o with OWrite _ s _ => good s | _ => true end.

Definition R (st : store) (f : fsys) : Prop := forall p, fget p f = option_map content (eget_file p st).
Definition Inv (st : store) : Prop := forall p ls, eget_file p st = Some ls -> ls <> [] /\ forallb good ls = true.

Lemma fget_fset_same k v f : fget k (fset k v f) = Some v.
Proof. induction f as [|[k' v'] r IH]; simpl; [rewrite beq_refl; reflexivity|]. destruct (beq k k') eqn:E; simpl; rewrite ?beq_refl, ?E; [reflexivity|exact IH]. Qed.
Lemma fget_fset_other k k2 v f : beq k2 k = false -> fget k2 (fset k v f) = fget k2 f.
Proof.
  intro H. induction f as [|[k' v'] r IH]; simpl; [rewrite H; reflexivity|].
  destruct (beq k k') eqn:E; simpl.
  - apply beq_eq in E. subst k'. rewrite H. reflexivity.
  - destruct (beq k2 k'); [reflexivity|exact IH].
Qed.
Lemma eget_eset_same k v e : eget_file k (eset_file k v e) = Some v.
Proof. induction e as [|[k' v'] r IH]; simpl; [rewrite beq_refl; reflexivity|]. destruct (beq k k') eqn:E; simpl; rewrite ?beq_refl, ?E; [reflexivity|exact IH]. Qed.
Lemma eget_eset_other k k2 v e : beq k2 k = false -> eget_file k2 (eset_file k v e) = eget_file k2 e.
Proof.
  intro H. induction e as [|[k' v'] r IH]; simpl; [rewrite H; reflexivity|].
  destruct (beq k k') eqn:E; simpl.
  - apply beq_eq in E. subst k'. rewrite H. reflexivity.
  - destruct (beq k2 k'); [reflexivity|exact IH].
Qed.

Lemma content_app a b : content (a ++ b) = content a ++ content b.
Proof. unfold content. rewrite map_app, concat_app. reflexivity. Qed.

Lemma content_one s : content [s] = s ++ [10].
Proof. unfold content. cbn [map concat]. apply app_nil_r. Qed.

Lemma content_join ls : ls <> [] -> content ls = lines_text ls ++ [10].
Proof.
  unfold content, lines_text. induction ls as [|l ls IH]; intro H; [congruence|].
  destruct ls as [|l2 ls]; [simpl; rewrite app_nil_r; reflexivity|].
  change (join [10] (l :: l2 :: ls)) with (l ++ [10] ++ join [10] (l2 :: ls)).
  change (concat (map (fun l0 : list N => l0 ++ [10]) (l :: l2 :: ls))) with ((l ++ [10]) ++ concat (map (fun l0 : list N => l0 ++ [10]) (l2 :: ls))).
  rewrite IH by discriminate. rewrite <- !app_assoc. reflexivity.
Qed.

Lemma last_join_good ls : ls <> [] -> forallb good ls = true -> good (lines_text ls) = true.
Proof.
  unfold lines_text. induction ls as [|l ls IH]; intros H G; [congruence|].
  simpl in G. apply andb_true_iff in G as [Gl Gls]. destruct ls as [|l2 ls]; [exact Gl|].
  specialize (IH ltac:(discriminate) Gls).
  change (join [10] (l :: l2 :: ls)) with (l ++ [10] ++ join [10] (l2 :: ls)).
  remember (join [10] (l2 :: ls)) as J eqn:EJ. clear EJ. unfold good in *. rewrite !rev_app_distr.
  destruct (rev J) as [|c r]; [discriminate|]. exact IH.
Qed.

Lemma strip_good t : good t = true -> strip_nl (t ++ [10]) = t.
Proof.
  unfold good, strip_nl. intro H. rewrite rev_app_distr. cbn [rev app drop_nl].
  destruct (rev t) as [|c r] eqn:E; [discriminate|].
  apply negb_true_iff in H. assert (drop_nl (c :: r) = c :: r) as D.
  { destruct c as [|p]; [reflexivity|]. destruct p as [p|p|]; try reflexivity; destruct p as [p|p|]; try reflexivity;
    destruct p as [p|p|]; try reflexivity; destruct p as [p|p|]; try reflexivity. discriminate. }
  rewrite D, <- E. apply rev_involutive.
Qed.

Lemma read_agrees ls : ls <> [] -> forallb good ls = true -> strip_nl (content ls) = lines_text ls.
Proof. intros H G. rewrite content_join by assumption. apply strip_good. apply last_join_good; assumption. Qed.

Theorem step_refines st f o :
  R st f -> Inv st -> op_good o = true ->
  R (fst (spec_step st o)) (fst (sh_step f o)) /\ Inv (fst (spec_step st o)) /\ snd (spec_step st o) = snd (sh_step f o).
Proof.
  intros HR HI Hg. destruct o as [p s app|p|p]; cbn [spec_step sh_step fst snd].
  - split; [|split; [|reflexivity]].
    + intro p2. destruct (beq p2 p) eqn:E.
      * apply beq_eq in E. subst p2. rewrite fget_fset_same, eget_eset_same, (HR p). cbn [option_map]. f_equal.
        destruct app; [destruct (eget_file p st) as [ls|]|]; cbn [option_map List.app]; rewrite ?content_app, content_one; reflexivity.
      * rewrite (fget_fset_other _ _ _ _ E), (eget_eset_other _ _ _ _ E). apply HR.
    + intros p2 ls H. destruct (beq p2 p) eqn:E.
      * apply beq_eq in E. subst p2. rewrite eget_eset_same in H. inversion H; subst ls; clear H.
        cbn [op_good] in Hg. assert (forallb good [s] = true) as Gs by (cbn [forallb]; rewrite Hg; reflexivity).
        destruct app; [destruct (eget_file p st) as [old|] eqn:G|]; try (split; [discriminate|exact Gs]).
        destruct (HI p old G) as [_ Go]. split; [destruct old; discriminate|]. rewrite forallb_app, Go. exact Gs.
      * rewrite (eget_eset_other _ _ _ _ E) in H. exact (HI p2 ls H).
  - split; [exact HR|split; [exact HI|]]. f_equal. rewrite (HR p). destruct (eget_file p st) as [ls|] eqn:G; cbn [option_map]; [|reflexivity].
    destruct (HI p ls G) as [Hn Hgood]. symmetry. apply read_agrees; assumption.
  - split; [exact HR|split; [exact HI|]]. f_equal. rewrite (HR p). destruct (eget_file p st); reflexivity.
Qed.

Theorem write_then_read f p s : good s = true ->
  snd (sh_step (fst (sh_step f (OWrite p s false))) (ORead p)) = Some s
  /\ fget p (fst (sh_step f (OWrite p s false))) = Some (s ++ [10]).
Proof.
  intro G. cbn [sh_step fst snd]. rewrite fget_fset_same. split; [|reflexivity]. f_equal. apply strip_good. exact G.
Qed.

Theorem read_exists_touch_nothing f o : (match o with OWrite _ _ _ => False | _ => True end) -> fst (sh_step f o) = f.
Proof. destruct o; intro H; [contradiction|reflexivity|reflexivity]. Qed.

Example history_sample :
  let ops := [OWrite (bs "a b") (bs "x") false; OWrite (bs "a b") (bs "y $z") true; ORead (bs "a b"); OExists (bs "q"); OWrite (bs "q") (bs "-n") false; ORead (bs "q")] in
  forallb op_good ops = true /\ snd (run_sh [] ops) = snd (run_spec [] ops)
  /\ snd (run_sh [] ops) = [None; None; Some (bs "x" ++ [10] ++ bs "y $z"); Some (bs "0"); None; Some (bs "-n")].
Proof. vm_compute. repeat split; reflexivity. Qed.
