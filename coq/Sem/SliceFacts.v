(* Lists with one element replaced (the heap and slice stores of Sem/Src.v), and substrings of the reference
   semantics; the theorems of C03 are in Properties/C03.v. *)
From Verif Require Import Base.Bytestr Sem.Src.
From Coq Require Import PeanoNat.

Lemma replace_nth_length {A} n (x : A) l : length (replace_nth n x l) = length l.
Proof. revert n; induction l as [|y l IH]; intros [|n]; simpl; auto. Qed.

Lemma replace_nth_same {A} n (x : A) l : (n < length l)%nat -> nth_error (replace_nth n x l) n = Some x.
Proof. revert n; induction l as [|y l IH]; intros [|n] H; simpl in *; try lia; [reflexivity|apply IH; lia]. Qed.

Lemma replace_nth_other {A} n m (x : A) l : n <> m -> nth_error (replace_nth n x l) m = nth_error l m.
Proof. revert n m; induction l as [|y l IH]; intros [|n] [|m] H; simpl; try reflexivity; try congruence. apply IH. congruence. Qed.

(* substrings: s[a:b] of the surface language is the Core pair (a, b-1); its value is Go's s[a:b] *)
Theorem substring_is_go_slice (s : bytes) (a b : nat) : (a <= b <= length s)%nat ->
  sub_bytes s a (b - 1 - a + 1) = firstn (b - a) (skipn a s) \/ a = b.
Proof. intro H. destruct (Nat.eq_dec a b) as [->|Hn]; [right; reflexivity|left]. unfold sub_bytes. f_equal. lia. Qed.

Theorem substring_length (s : bytes) (a n : nat) : (a + n <= length s)%nat -> length (sub_bytes s a n) = n.
Proof. intro H. unfold sub_bytes. rewrite firstn_length, skipn_length. lia. Qed.

(* s[a:a] *)
Theorem sub_empty (s : bytes) a : sub_bytes s a 0 = [].
Proof. reflexivity. Qed.

