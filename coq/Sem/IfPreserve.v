(* Conditionals of the Bash target.  For programs built from assignments, prints and if / else-if / else with such
   bodies (at any nesting depth): the emitted lines, run by the flat shell model of Sem/FlatSem.v, print what the
   source prints and leave the shell environment representing the final source environment.  As in the source
   language's implementation, all conditions of an if / else-if chain are evaluated before the first test. *)
From Verif Require Import Base.Bytestr Front.Ast Back.BashLines Back.Transpile Back.BashConv
  Back.BashSyntax Back.BashFacts Sem.Src Sem.BashSem Sem.ExprPreserve Sem.StmtPreserve Sem.FlatSem.
Open Scope N_scope.

(* the local t_block of t_stmt under a name (evaluateBlock of /repo transpiler/transpiler.go): an empty block
   becomes one no-op line *)
Definition tb (b : list stmt) : M (St:=bstate) unit :=
  match b with [] => upd (cv_nop bstate atom bash_conv) | _ => go_fix b end.

Definition conds_fix :=
  fix conds (l : list (expr * list stmt)) : M (St:=bstate) (list atom) :=
    match l with
    | [] => mret []
    | (c, _) :: r => mbind (t_expr bash_conv c true) (fun vc => mbind (conds r) (fun vr => mret (first_value bash_conv vc :: vr)))
    end.

Definition bodies_fix :=
  fix bodies (l : list (expr * list stmt)) (vs : list atom) {struct l} : M (St:=bstate) unit :=
    match l, vs with
    | [], _ => mret tt
    | (_, b) :: r, v :: vr => mbind (cv_elseif_start bstate atom bash_conv v) (fun _ => mbind (tb b) (fun _ => bodies r vr))
    | _ :: _, [] => fun _ => TPanic
    end.

Definition else_part (els : list stmt) : M (St:=bstate) unit :=
  match els with [] => mret tt | _ => mbind (cv_else_start bstate atom bash_conv) (fun _ => tb els) end.

Lemma if_decompose c0 b0 elifs els s u s' :
  t_stmt bash_conv (SIf ((c0, b0) :: elifs) els) s = TOk u s' ->
  exists a0 cs sc sb0 sch sel,
    conds_fix ((c0, b0) :: elifs) s = TOk (a0 :: cs) sc /\
    tb b0 (add_line (LIf (bs "if") a0) sc) = TOk tt sb0 /\
    bodies_fix elifs cs sb0 = TOk tt sch /\ else_part els sch = TOk tt sel /\ s' = add_line LFi sel.
Proof.
  intro H. cbn [t_stmt] in H.
  mb H as v0 s0 H0 H. mb H as cs sc Hc H. mb H as u1 s1 H1 H. mu H1. subst s1.
  mb H as u2 sb0 Hb0 H. mb H as u3 sch Hch H. mb H as u4 sel Hel H.
  rewrite bash_if_end in H. inversion H; subst; clear H. destruct u2, u3, u4.
  exists (first_value bash_conv v0), cs, sc, sb0, sch, sel. rewrite bash_if_start in Hb0.
  change (conds_fix elifs s0 = TOk cs sc) in Hc.
  split; [cbn [conds_fix]; unfold mbind; rewrite H0, Hc; reflexivity|]. repeat split; assumption.
Qed.

Lemma bodies_step c b r v vr s u s' :
  bodies_fix ((c, b) :: r) (v :: vr) s = TOk u s' ->
  exists s1, tb b (add_line (LIf (bs "elif") v) s) = TOk tt s1 /\ bodies_fix r vr s1 = TOk u s'.
Proof.
  intro H. cbn [bodies_fix] in H. mb H as u1 s1 H1 H. unfold bash_conv in H1. cbn [cv_elseif_start] in H1. inversion H1; subst; clear H1.
  mb H as u2 s2 H2 H. destruct u2. exists s2. split; assumption.
Qed.

(* the fragment; everything it emits is jumped over as a whole (frag_closed) *)
Fixpoint frag (st : stmt) : bool :=
  let all := fix all (l : list stmt) : bool := match l with [] => true | x :: r => frag x && all r end in
  match st with
  | SAssign [_] [e] => pure e
  | SVarDef [_] [e] => pure e
  | SPrint es => forallb pure es
  | SIf ((c0, b0) :: elifs) els =>
      pure c0 && all b0
      && (fix ab (l : list (expr * list stmt)) : bool := match l with [] => true | cb :: r => pure (fst cb) && all (snd cb) && ab r end) elifs
      && all els
  | _ => false
  end.
Fixpoint frag_all (l : list stmt) : bool := match l with [] => true | x :: r => frag x && frag_all r end.
Fixpoint frag_branches (l : list (expr * list stmt)) : bool :=
  match l with [] => true | cb :: r => pure (fst cb) && frag_all (snd cb) && frag_branches r end.

Lemma frag_all_eq l : (fix all (l : list stmt) : bool := match l with [] => true | x :: r => frag x && all r end) l = frag_all l.
Proof. induction l as [|x r IH]; [reflexivity|]. cbn [frag_all]. rewrite <- IH. reflexivity. Qed.

Lemma frag_branches_eq l :
  (fix ab (l : list (expr * list stmt)) : bool :=
     match l with [] => true | cb :: r => pure (fst cb) && (fix all (l : list stmt) : bool := match l with [] => true | x :: r => frag x && all r end) (snd cb) && ab r end) l
  = frag_branches l.
Proof. induction l as [|cb r IH]; [reflexivity|]. cbn [frag_branches]. rewrite <- IH, frag_all_eq. reflexivity. Qed.

Lemma frag_if c0 b0 elifs els :
  frag (SIf ((c0, b0) :: elifs) els) = true -> pure c0 = true /\ frag_all b0 = true /\ frag_branches elifs = true /\ frag_all els = true.
Proof. cbn [frag]. rewrite !frag_all_eq, frag_branches_eq, !andb_true_iff. tauto. Qed.

Lemma frag_branches_cons c b r : frag_branches ((c, b) :: r) = true -> pure c = true /\ frag_all b = true /\ frag_branches r = true.
Proof. cbn [frag_branches fst snd]. rewrite !andb_true_iff. tauto. Qed.

Lemma simple_plain ls : forallb is_simple ls = true -> forallb plain_line ls = true.
Proof.
  induction ls as [|l r IH]; intro H; [reflexivity|]. simpl in H. apply andb_true_iff in H as [Hl Hr]. cbn [forallb]. rewrite (IH Hr).
  destruct l; try discriminate; reflexivity.
Qed.

Definition emits_closed (s s' : bstate) : Prop := exists X, ext s s' X /\ closed X.

Lemma ec_refl s : emits_closed s s. Proof. exists []. split; [apply ext_refl|apply closed_nil]. Qed.
Lemma ec_trans a b c : emits_closed a b -> emits_closed b c -> emits_closed a c.
Proof. intros (X & E1 & C1) (Y & E2 & C2). exists (X ++ Y). split; [eapply ext_trans; eassumption|apply closed_app; assumption]. Qed.
Lemma ec_line l s : plain_line l = true -> emits_closed s (add_line l s).
Proof. intro H. exists [l]. split; [apply ext_add_line|]. apply closed_plain. cbn [forallb]. rewrite H. reflexivity. Qed.

Lemma yields_closed {A} ne (m : M A) c : yields ne m c -> forall s a s', m s = TOk a s' -> emits_closed s s'.
Proof. intros H s a s' Hm. destruct (H s a s' Hm) as (ls & E & Hs & _). exists ls. split; [exact E|]. apply closed_plain, simple_plain, Hs. Qed.

Lemma ec_expr e used s vs s' : t_expr bash_conv e used s = TOk vs s' -> emits_closed s s'.
Proof. exact (yields_closed _ _ _ (t_expr_yields e used) s vs s'). Qed.

Lemma assign_closed x e s u s' : t_stmt bash_conv (SAssign [x] [e]) s = TOk u s' -> emits_closed s s'.
Proof. exact (yields_closed _ _ _ (assign_values_yields [x] [e]) s u s'). Qed.

Lemma print_closed es s u s' : t_stmt bash_conv (SPrint es) s = TOk u s' -> emits_closed s s'.
Proof.
  intro Ht. cbn [t_stmt] in Ht. mb Ht as vs s1 H1 H2. mu H2. subst s'. rewrite bash_print.
  eapply ec_trans; [|apply ec_line; reflexivity].
  clear -H1. revert s vs s1 H1. induction es as [|e r IH]; intros s vs s1 H1.
  - mr H1. apply ec_refl.
  - mb H1 as ve s2 H1 H2. mb H2 as vr s3 H2 H3. mr H3. eapply ec_trans; [exact (ec_expr _ _ _ _ _ H1)|exact (IH _ _ _ H2)].
Qed.

Lemma conds_closed elifs s cs s' : conds_fix elifs s = TOk cs s' -> emits_closed s s'.
Proof. exact (yields_closed _ _ _ (conds_yields elifs) s cs s'). Qed.

Definition tail_head (l : line) : Prop := l = LFi \/ l = LElse \/ exists c, l = LIf (bs "elif") c.

(* T: what follows the first body of a construct up to and including its fi *)
Record tail_ok (T : list line) : Prop := mkTail {
  t_branch : forall rest d, skip_branch (T ++ rest) (S d) = skip_branch rest d;
  t_fi : forall rest d, skip_fi (T ++ rest) (S d) = skip_fi rest d;
  t_fi0 : forall rest, skip_fi (T ++ rest) 0 = Some rest;
  t_here : forall rest, skip_branch (T ++ rest) 0 = Some (T ++ rest);
  t_shape : exists l r, T = l :: r /\ tail_head l
}.

Lemma tail_fi : tail_ok [LFi].
Proof. constructor; intros; try reflexivity. exists LFi, []. split; [reflexivity|left; reflexivity]. Qed.

Lemma tail_else B : closed B -> tail_ok ([LElse] ++ B ++ [LFi]).
Proof.
  intros [B1 B2]. constructor; intros; cbn [app skip_branch skip_fi]; rewrite <- ?app_assoc.
  - rewrite B1. reflexivity.
  - rewrite B2. reflexivity.
  - rewrite B2. reflexivity.
  - reflexivity.
  - exists LElse, (B ++ [LFi]). split; [reflexivity|right; left; reflexivity].
Qed.

Lemma tail_elif c B T : closed B -> tail_ok T -> tail_ok ([LIf (bs "elif") c] ++ B ++ T).
Proof.
  intros [B1 B2] [T1 T2 T3 _ _]. constructor; intros; cbn [app skip_branch skip_fi]; change (is_if (bs "elif")) with false; cbn iota;
    rewrite <- ?app_assoc.
  - rewrite B1. apply T1.
  - rewrite B2. apply T2.
  - rewrite B2. apply T3.
  - reflexivity.
  - exists (LIf (bs "elif") c), (B ++ T). split; [reflexivity|right; right; exists c; reflexivity].
Qed.

Definition stmt_closed (st : stmt) : Prop := frag st = true -> forall s u s', t_stmt bash_conv st s = TOk u s' -> emits_closed s s'.

Lemma go_closed b : Forall stmt_closed b -> frag_all b = true -> forall s u s', go_fix b s = TOk u s' -> emits_closed s s'.
Proof.
  induction b as [|x r IH]; intros HF Hf s u s' H.
  - mr H. apply ec_refl.
  - inversion HF as [|y l Hx Hr]; subst. cbn [frag_all] in Hf. apply andb_true_iff in Hf as [Fx Fr].
    cbn [go_fix] in H. mb H as u1 s1 H1 H2. eapply ec_trans; [exact (Hx Fx _ _ _ H1)|exact (IH Hr Fr _ _ _ H2)].
Qed.

Lemma tb_closed b : Forall stmt_closed b -> frag_all b = true -> forall s u s', tb b s = TOk u s' -> emits_closed s s'.
Proof.
  intros HF Hf s u s' H. destruct b as [|x r].
  - unfold tb in H. mu H. subst s'. apply ec_line. reflexivity.
  - exact (go_closed (x :: r) HF Hf s u s' H).
Qed.

Definition emits_tail (s s' : bstate) : Prop := exists T, ext s s' T /\ tail_ok T.

Lemma else_tail els : Forall stmt_closed els -> frag_all els = true -> forall s s1,
  else_part els s = TOk tt s1 -> emits_tail s (add_line LFi s1).
Proof.
  intros HF Hf s s1 H. destruct els as [|x r].
  - mr H. exists [LFi]. split; [apply ext_add_line|apply tail_fi].
  - unfold else_part in H. mb H as u1 s2 H1 H2. rewrite bash_else_start in H1. inversion H1; subst; clear H1.
    destruct (tb_closed (x :: r) HF Hf _ _ _ H2) as (B & EB & CB).
    exists ([LElse] ++ B ++ [LFi]). split; [|apply tail_else; exact CB].
    eapply ext_trans; [apply ext_add_line|]. eapply ext_trans; [exact EB|apply ext_add_line].
Qed.

(* too few condition atoms make bodies_fix fail, more than needed are ignored: their number need not be known *)
Lemma bodies_tail elifs : Forall (fun cb => Forall stmt_closed (snd cb)) elifs -> frag_branches elifs = true ->
  forall els, Forall stmt_closed els -> frag_all els = true ->
  forall cs s s1 s2, bodies_fix elifs cs s = TOk tt s1 -> else_part els s1 = TOk tt s2 ->
  emits_tail s (add_line LFi s2).
Proof.
  induction elifs as [|[c b] r IH]; intros HF Hf els HFe Hfe cs s s1 s2 Hb He.
  - mr Hb. exact (else_tail els HFe Hfe _ _ He).
  - destruct cs as [|v vr]; [discriminate Hb|]. inversion HF as [|y l Hx Hr]; subst. cbn [snd] in Hx.
    apply frag_branches_cons in Hf as (_ & Hfb & Hfr).
    destruct (bodies_step c b r v vr s tt s1 Hb) as (sm & Hm & Hrest).
    destruct (tb_closed b Hx Hfb _ _ _ Hm) as (B & EB & CB).
    destruct (IH Hr Hfr els HFe Hfe vr sm s1 s2 Hrest He) as (T & ET & CT).
    exists ([LIf (bs "elif") v] ++ B ++ T). split; [|apply tail_elif; assumption].
    eapply ext_trans; [apply ext_add_line|]. eapply ext_trans; [exact EB|exact ET].
Qed.

Theorem frag_closed : forall st, stmt_closed st.
Proof.
  induction st as [vs es| |vs es| | | | |brs els Hbrs Hels| | | |es| | |] using AstInd.stmt_ind'; intro Hf; try discriminate; intros s u s' Ht.
  1,2: (* a definition is translated as the assignment is *)
    destruct vs as [|x [|? ?]]; try discriminate; destruct es as [|e [|? ?]]; try discriminate; exact (assign_closed x e s u s' Ht).
  - destruct brs as [|[c0 b0] elifs]; [discriminate|]. apply frag_if in Hf as (_ & Hf0 & Hfb & Hfe).
    inversion Hbrs as [|y l Hb0 Hel]; subst. cbn [snd] in Hb0.
    destruct (if_decompose c0 b0 elifs els s u s' Ht) as (a0 & cs & sc & sb0 & sch & sel & Ec & Eb0 & Ech & Eel & ->).
    destruct (tb_closed b0 Hb0 Hf0 _ _ _ Eb0) as (B0 & EB0 & CB0).
    destruct (bodies_tail elifs Hel Hfb els Hels Hfe cs sb0 sch sel Ech Eel) as (T & ET & CT).
    eapply ec_trans; [exact (conds_closed _ _ _ _ Ec)|].
    exists ([LIf (bs "if") a0] ++ B0 ++ T). split.
    + eapply ext_trans; [apply ext_add_line|]. eapply ext_trans; [exact EB0|exact ET].
    + destruct CT as [T1 T2 _ _ _]. apply closed_if; assumption.
  - exact (print_closed es s u s' Ht).
Qed.

Lemma all_closed l : Forall stmt_closed l.
Proof. apply Forall_forall. intros st _. apply frag_closed. Qed.

Lemma conds_as_pv : forall l s cs sc, (forall cb, In cb l -> pure (fst cb) = true) ->
  conds_fix l s = TOk cs sc -> pv_fix (map fst l) s = TOk cs sc.
Proof.
  induction l as [|[c b] r IH]; intros s cs sc Hp H.
  - exact H.
  - cbn [conds_fix] in H. mb H as vc s1 H1 H2. mb H2 as vr s2 H2 H3. mr H3.
    destruct (pure_single c (Hp (c, b) (or_introl eq_refl)) true s vc s1 H1) as [a ->]. cbn [first_value].
    cbn [map fst pv_fix]. unfold mbind. rewrite H1. rewrite (IH s1 vr sc (fun cb Hc => Hp cb (or_intror Hc)) H2). reflexivity.
Qed.

Fixpoint pick (bools : list bool) (bodies : list (list stmt)) (els : list stmt) : list stmt :=
  match bools, bodies with
  | true :: _, b :: _ => b
  | false :: bs, _ :: r => pick bs r els
  | _, _ => els
  end.

(* sl of Sem/StmtPreserve.v with conditionals: all conditions of a chain are evaluated, then pick chooses *)
Inductive slx (XS : list var) : senv -> list stmt -> senv -> bytes -> Prop :=
| x_nil sg : slx XS sg [] sg []
| x_assign sg x e v r sg' out :
    pure e = true -> side XS e -> In x XS -> peval sg e = Some v -> env_ok (supd sg x v) ->
    slx XS (supd sg x v) r sg' out -> slx XS sg (SAssign [x] [e] :: r) sg' out
| x_define sg x e v r sg' out :
    pure e = true -> side XS e -> In x XS -> peval sg e = Some v -> env_ok (supd sg x v) ->
    slx XS (supd sg x v) r sg' out -> slx XS sg (SVarDef [x] [e] :: r) sg' out
| x_print sg es vals r sg' out :
    forallb pure es = true -> (forall e, In e es -> side XS e) -> pevals sg es = Some vals ->
    slx XS sg r sg' out -> slx XS sg (SPrint es :: r) sg' (join [32] (map text vals) ++ [10] ++ out)
| x_if sg c0 b0 elifs els bools sgm outm r sg' out :
    frag (SIf ((c0, b0) :: elifs) els) = true ->
    (forall cb, In cb ((c0, b0) :: elifs) -> side XS (fst cb)) ->
    pevals sg (c0 :: map fst elifs) = Some (map VBool bools) ->
    slx XS sg (pick bools (b0 :: map snd elifs) els) sgm outm ->
    slx XS sgm r sg' out ->
    slx XS sg (SIf ((c0, b0) :: elifs) els :: r) sg' (outm ++ out).

Lemma pick_nil bools els : pick bools [] els = els.
Proof. destruct bools as [|[|] r]; reflexivity. Qed.

Record ctx_ok (XS : list var) (sg : senv) (b : shenv) (s : bstate) : Prop := mkCtx {
  c_fine : forall x, In x XS -> var_fine s x;
  c_rep : represents sg b s XS;
  c_hy : hygienic s XS;
  c_inj : names_inj s XS
}.

(* the context speaks of a translation state only through the names it gives *)
Lemma ctx_same_names XS sg b s s' :
  (forall x, user_name s' x = user_name s x) -> (forall k, helper_name s' k = helper_name s k) -> ctx_ok XS sg b s -> ctx_ok XS sg b s'.
Proof.
  intros Hu Hh [A B C D]. constructor.
  - intros x Hx. unfold var_fine. rewrite Hu. exact (A x Hx).
  - intros x v Hx Hv. rewrite Hu. exact (B x v Hx Hv).
  - intros x k Hx. rewrite Hu, Hh. exact (C x k Hx).
  - intros y z Hy Hz. rewrite !Hu. exact (D y z Hy Hz).
Qed.

Lemma ctx_ext XS sg b s s' ls : ext s s' ls -> ctx_ok XS sg b s -> ctx_ok XS sg b s'.
Proof. intro E. exact (ctx_same_names XS sg b s s' (fun x => user_name_ext _ _ _ x E) (fun k => helper_name_ext _ _ _ k E)). Qed.

Lemma ctx_rep XS sg b s sg' b' : ctx_ok XS sg b s -> represents sg' b' s XS -> ctx_ok XS sg' b' s.
Proof. intros [A _ C D] B. exact (mkCtx XS sg' b' s A B C D). Qed.

Lemma ctx_frame XS sg b b' s :
  ctx_ok XS sg b s -> (forall x, In x XS -> sh_get (user_name s x) b' = sh_get (user_name s x) b) -> ctx_ok XS sg b' s.
Proof. intros [A B C D] H. constructor; [exact A| |exact C|exact D]. intros x w Hx Hw. rewrite (H x Hx). exact (B x w Hx Hw). Qed.

Lemma pure_values XS es sg s vs s' b vals :
  forallb pure es = true -> pv_fix es s = TOk vs s' -> pevals sg es = Some vals -> env_ok sg ->
  (forall e, In e es -> side XS e) -> ctx_ok XS sg b s ->
  exists ls b', ext s s' ls /\ exec_outs b ls = Some (b', []) /\ ctx_ok XS sg b' s' /\
     (forall n, (forall k, n <> helper_name s k) -> sh_get n b' = sh_get n b) /\
     map (atom_text b') vs = map text vals /\ Forall (atom_stable s XS (b_var_counter s')) vs.
Proof.
  intros Hp Ht Hv Henv Hes Hc. pose proof Hc as [Cf Hrep Hhy Hinj].
  destruct (print_values es sg s vs s' b vals XS Hp Ht Hv Henv Hes Cf Hrep Hhy) as (ls & b' & E & _ & R & V & F & S & _).
  assert (forall n, (forall k, n <> helper_name s k) -> sh_get n b' = sh_get n b) as F' by (intros n Hn; apply F; intros k _; apply Hn).
  exists ls, b'. split; [exact E|].
  split; [exact (exec_outs_silent ls b b' (exec_lines_no_echo ls b b' R) R)|].
  split; [apply (ctx_ext XS _ _ s _ _ E), (ctx_frame XS sg b b' s Hc); intros x Hx; apply F'; intro k; exact (Hhy x k Hx)|].
  split; [exact F'|]. split; [exact V|exact S].
Qed.

(* From the translation state s and the shell environment b: the lines X emitted up to s', met while running (with seek:
   while looking for the next branch of a construct), run in continuation-passing style to an environment that
   represents sg'; out is printed on the way. *)
Definition leads (seek : bool) (XS : list var) (sg' : senv) (out : bytes) (s s' : bstate) (b : shenv) (X : list line) : Prop :=
  exists b', ext s s' X /\ env_ok sg' /\ ctx_ok XS sg' b' s' /\
             forall rest res, runs b' rest res -> exists f, run f seek b (X ++ rest) = Some (prepend out res).

Definition sim_flat (XS : list var) (sg' : senv) (out : bytes) (s s' : bstate) (b : shenv) : Prop :=
  exists X, leads false XS sg' out s s' b X.

Definition steps_flat (XS : list var) (sg : senv) (m : M (St:=bstate) unit) (sg' : senv) (out : bytes) : Prop :=
  forall s u s' b, m s = TOk u s' -> env_ok sg -> ctx_ok XS sg b s -> sim_flat XS sg' out s s' b.

Lemma sim_flat_prefix XS sg' o1 o2 s s1 s' b b1 X1 :
  ext s s1 X1 -> (forall rest res, runs b1 rest res -> runs b (X1 ++ rest) (prepend o1 res)) ->
  sim_flat XS sg' o2 s1 s' b1 -> sim_flat XS sg' (o1 ++ o2) s s' b.
Proof.
  intros E1 K1 (X2 & b2 & E2 & V2 & C2 & K2).
  exists (X1 ++ X2), b2. split; [exact (ext_trans _ _ _ _ _ E1 E2)|]. split; [exact V2|]. split; [exact C2|].
  intros rest res H. rewrite <- app_assoc, <- prepend_app. exact (K1 _ _ (K2 rest res H)).
Qed.

Lemma steps_flat_seq XS sg m1 sg1 o1 m2 sg' o2 :
  steps_flat XS sg m1 sg1 o1 -> steps_flat XS sg1 m2 sg' o2 -> steps_flat XS sg (mbind m1 (fun _ => m2)) sg' (o1 ++ o2).
Proof.
  intros H1 H2 s u s' b Ht Henv Hc. mb Ht as u1 s1 T1 T2.
  destruct (H1 s u1 s1 b T1 Henv Hc) as (X1 & b1 & E1 & V1 & C1 & K1).
  exact (sim_flat_prefix XS sg' o1 o2 s s1 s' b b1 X1 E1 K1 (H2 s1 u s' b1 T2 V1 C1)).
Qed.

Lemma straight_flat XS sg m sg' out : straight XS sg m sg' out -> steps_flat XS sg m sg' out.
Proof.
  intros H s u s' b Ht Henv Hc. pose proof Hc as [Cf Cr Ch Ci]. destruct (H s u s' b Ht Henv Cf Cr Ch Ci) as (ls & b' & E & R & V & Rep & _).
  exists ls, b'. split; [exact E|]. split; [exact V|]. split.
  - exact (ctx_rep XS sg b s' sg' b' (ctx_ext XS sg b s s' ls E Hc) Rep).
  - intros rest res. exact (runs_straight ls b b' out rest res R).
Qed.

(* leaving a construct after its taken branch *)
Lemma exit_tail T e rest res : tail_ok T -> runs e rest res -> runs e (T ++ rest) res.
Proof.
  intros [_ _ T3 _ (l & r & -> & Hl)] [f Hf]. specialize (T3 rest). exists (S f). cbn [app run].
  destruct Hl as [->|[->|[c ->]]].
  - cbn [app skip_fi] in T3. injection T3 as T3'. rewrite T3'. exact Hf.
  - cbn [app skip_fi] in T3. rewrite T3. exact Hf.
  - cbn [app skip_fi] in T3. change (is_if (bs "elif")) with false in *. cbn iota in *. rewrite T3. exact Hf.
Qed.

(* the body of a branch; an empty one is translated to a no-op line *)
Lemma run_body XS sg body sgm outm s u s1 b :
  tb body s = TOk u s1 -> steps_flat XS sg (go_fix body) sgm outm -> env_ok sg -> ctx_ok XS sg b s -> sim_flat XS sgm outm s s1 b.
Proof.
  intros Ht Hsim Henv Hc. destruct body as [|x r]; [|exact (Hsim s u s1 b Ht Henv Hc)].
  unfold tb in Ht. mu Ht. subst s1. destruct (Hsim s tt s b eq_refl Henv Hc) as (X & b' & E & V & Cc & Hk).
  pose proof (ext_add_line LNop s) as En.
  exists (X ++ [LNop]), b'. split; [exact (ext_trans _ _ _ _ _ E En)|]. split; [exact V|]. split; [exact (ctx_ext _ _ _ _ _ _ En Cc)|].
  intros rest res [f Hf]. rewrite <- app_assoc. apply Hk. exists (S f). exact Hf.
Qed.

Lemma cond_of_text e a t : atom_text e a = bool_text t -> cond_true e a = Some t.
Proof. intro H. unfold cond_true. rewrite H, int_of_bool_text. destruct t; reflexivity. Qed.

Lemma ext_same s s' X Y : ext s s' X -> ext s s' Y -> X = Y.
Proof. intros E1 E2. apply (app_inv_head (b_code s)). rewrite <- (x_code _ _ _ E1). exact (x_code _ _ _ E2). Qed.

(* the chain of else-if branches, met while seeking *)
Definition chain_flat (XS : list var) (sgm : senv) (outm : bytes) (els : list stmt) (elifs : list (expr * list stmt)) : Prop :=
  forall cs bools s s1 s2 sg b,
  bodies_fix elifs cs s = TOk tt s1 -> else_part els s1 = TOk tt s2 ->
  map (atom_text b) cs = map bool_text bools ->
  env_ok sg -> ctx_ok XS sg b s ->
  steps_flat XS sg (go_fix (pick bools (map snd elifs) els)) sgm outm ->
  exists T, (forall rest, skip_branch (T ++ rest) 0 = Some (T ++ rest)) /\ leads true XS sgm outm s (add_line LFi s2) b T.

Lemma else_flat XS sgm outm els : chain_flat XS sgm outm els [].
Proof.
  intros cs bools s0 s s1 sg b Hb He _ Henv Hc Hsim. mr Hb. cbn [map] in Hsim. rewrite pick_nil in Hsim.
  pose proof (ext_add_line LFi s1) as Ef. destruct els as [|x r].
  - mr He. destruct (Hsim s1 tt s1 b eq_refl Henv Hc) as (X & b' & E & V & Cc & Hk).
    rewrite (ext_same _ _ _ _ E (ext_refl s1)) in Hk.
    exists [LFi]. split; [reflexivity|]. exists b'. split; [exact Ef|]. split; [exact V|]. split; [exact (ctx_ext _ _ _ _ _ _ Ef Cc)|].
    intros rest res Hr. destruct (Hk rest res Hr) as [f Hf']. exists (S f). exact Hf'.
  - unfold else_part in He. mb He as u1 s2 H1 H2. rewrite bash_else_start in H1. inversion H1; subst; clear H1.
    pose proof (ext_add_line LElse s) as Ee.
    destruct (Hsim _ tt s1 b H2 Henv (ctx_ext _ _ _ _ _ _ Ee Hc)) as (B & b' & EB & V & Cc & Hk).
    exists ([LElse] ++ B ++ [LFi]). split; [reflexivity|]. exists b'. split; [exact (ext_trans _ _ _ _ _ Ee (ext_trans _ _ _ _ _ EB Ef))|].
    split; [exact V|]. split; [exact (ctx_ext _ _ _ _ _ _ Ef Cc)|].
    intros rest res Hr. destruct (Hk ([LFi] ++ rest) res (exit_tail [LFi] b' rest res tail_fi Hr)) as [f Hf'].
    exists (S f). cbn [app run]. rewrite <- app_assoc. exact Hf'.
Qed.

(* one test with its body, in front of such a chain: the body runs, or the chain is walked *)
Lemma branch_flat XS sgm outm els elifs seek w :
  frag_all els = true -> frag_branches elifs = true -> chain_flat XS sgm outm els elifs -> seek || is_if w = true ->
  forall body v t cs ts s sm s1 s2 sg b,
  frag_all body = true -> tb body (add_line (LIf w v) s) = TOk tt sm ->
  bodies_fix elifs cs sm = TOk tt s1 -> else_part els s1 = TOk tt s2 ->
  atom_text b v = bool_text t -> map (atom_text b) cs = map bool_text ts -> env_ok sg -> ctx_ok XS sg b s ->
  steps_flat XS sg (go_fix (pick (t :: ts) (body :: map snd elifs) els)) sgm outm ->
  exists B T, leads seek XS sgm outm s (add_line LFi s2) b ([LIf w v] ++ B ++ T).
Proof.
  intros Hfe Hfr IH Hw body v t cs ts s sm s1 s2 sg b Hfb Hm Hrest He Hv Hvr Henv Hc Hsim.
  pose proof (ext_add_line (LIf w v) s) as Ese. pose proof (ctx_ext _ _ _ _ _ _ Ese Hc) as Hc1.
  destruct t; cbn [pick map snd] in Hsim.
  - destruct (run_body XS sg body sgm outm _ tt sm b Hm Hsim Henv Hc1) as (B & b' & EB & V & Cc & Hk).
    destruct (bodies_tail elifs (proj2 (Forall_forall _ _) (fun cb _ => all_closed (snd cb))) Hfr els (all_closed els) Hfe cs sm s1 s2 Hrest He)
      as (T & ET & CT).
    exists B, T, b'. split; [exact (ext_trans _ _ _ _ _ Ese (ext_trans _ _ _ _ _ EB ET))|]. split; [exact V|].
    split; [exact (ctx_ext _ _ _ _ _ _ ET Cc)|].
    intros rest res Hr. destruct (Hk (T ++ rest) res (exit_tail T b' rest res CT Hr)) as [f Hf']. exists (S f). cbn [app].
    rewrite (run_test seek w v true b _ f Hw (cond_of_text b v true Hv)), <- app_assoc. exact Hf'.
  - destruct (tb_closed body (all_closed body) Hfb _ _ _ Hm) as (B & EB & CB).
    destruct (IH cs ts sm s1 s2 sg b Hrest He Hvr Henv (ctx_ext _ _ _ _ _ _ EB Hc1) Hsim) as (T & HT & b' & ET & V & Cc & Hk).
    exists B, T, b'. split; [exact (ext_trans _ _ _ _ _ Ese (ext_trans _ _ _ _ _ EB ET))|]. split; [exact V|]. split; [exact Cc|].
    intros rest res Hr. destruct (Hk rest res Hr) as [f Hf']. exists (S f). cbn [app].
    rewrite (run_test seek w v false b _ f Hw (cond_of_text b v false Hv)), <- app_assoc, (proj1 CB), (HT rest). exact Hf'.
Qed.

Lemma walk_flat XS sgm outm els : frag_all els = true -> forall elifs, frag_branches elifs = true -> chain_flat XS sgm outm els elifs.
Proof.
  intros Hfe. induction elifs as [|[c body] r IH]; [intros _; apply else_flat|]. intros Hf cs bools s s1 s2 sg b Hb He Ht Henv Hc Hsim.
  destruct cs as [|v vr]; [discriminate Hb|]. destruct bools as [|t ts]; [discriminate Ht|].
  apply frag_branches_cons in Hf as (_ & Hfb & Hfr).
  destruct (bodies_step c body r v vr s tt s1 Hb) as (sm & Hm & Hrest).
  cbn [map] in Ht. injection Ht as Hv Hvr.
  destruct (branch_flat XS sgm outm els r true (bs "elif") Hfe Hfr (IH Hfr) eq_refl body v t vr ts s sm s1 s2 sg b
              Hfb Hm Hrest He Hv Hvr Henv Hc Hsim) as (B & T & H).
  exists ([LIf (bs "elif") v] ++ B ++ T). split; [reflexivity|exact H].
Qed.

Lemma frag_branches_pure l : frag_branches l = true -> forall cb, In cb l -> pure (fst cb) = true.
Proof.
  induction l as [|[c b] r IH]; intros H cb Hin; [destruct Hin|]. apply frag_branches_cons in H as (Hp & _ & Hr).
  destruct Hin as [<-|Hin]; [exact Hp|exact (IH Hr cb Hin)].
Qed.

Lemma forallb_pure_map (l : list (expr * list stmt)) : (forall cb, In cb l -> pure (fst cb) = true) -> forallb pure (map fst l) = true.
Proof. intro H. apply forallb_forall. intros e He. apply in_map_iff in He as (cb & <- & Hin). exact (H cb Hin). Qed.

(* As in the source language's implementation, all conditions are evaluated first: their lines write helpers only *)
Lemma conds_first XS sg l s cs sc b bools :
  (forall cb, In cb l -> pure (fst cb) = true) -> (forall cb, In cb l -> side XS (fst cb)) ->
  conds_fix l s = TOk cs sc -> pevals sg (map fst l) = Some (map VBool bools) -> env_ok sg -> ctx_ok XS sg b s ->
  exists Lc bc, ext s sc Lc /\ exec_outs b Lc = Some (bc, []) /\ ctx_ok XS sg bc sc /\
    (forall n, (forall k, n <> helper_name s k) -> sh_get n bc = sh_get n b) /\ map (atom_text bc) cs = map bool_text bools.
Proof.
  intros Hpure Hside Ec Hv Henv Hc.
  destruct (pure_values XS (map fst l) sg s cs sc b (map VBool bools) (forallb_pure_map _ Hpure) (conds_as_pv _ _ _ _ Hpure Ec) Hv Henv)
    as (Lc & bc & E & R & C & F & V & _); [|exact Hc|].
  - intros e He. apply in_map_iff in He as (cb & <- & Hin). exact (Hside cb Hin).
  - exists Lc, bc. split; [exact E|]. split; [exact R|]. split; [exact C|]. split; [exact F|]. rewrite V, map_map. apply map_ext, text_bool.
Qed.

Lemma if_flat XS sg c0 b0 elifs els bools sgm outm :
  frag (SIf ((c0, b0) :: elifs) els) = true -> (forall cb, In cb ((c0, b0) :: elifs) -> side XS (fst cb)) ->
  pevals sg (c0 :: map fst elifs) = Some (map VBool bools) ->
  steps_flat XS sg (go_fix (pick bools (b0 :: map snd elifs) els)) sgm outm ->
  steps_flat XS sg (t_stmt bash_conv (SIf ((c0, b0) :: elifs) els)) sgm outm.
Proof.
  intros Hfrag Hside Hv IHch s u s1 b H1 Henv Hc.
  destruct (if_decompose c0 b0 elifs els s u s1 H1) as (a0 & cs & sc & sb0 & sch & sel & Ec & Eb0 & Ech & Eel & ->).
  apply frag_if in Hfrag as (Hp0 & Hf0 & Hfb & Hfe).
  assert (forall cb, In cb ((c0, b0) :: elifs) -> pure (fst cb) = true) as Hpure
    by (intros cb [<-|Hin]; [exact Hp0|exact (frag_branches_pure elifs Hfb cb Hin)]).
  destruct (conds_first XS sg _ s _ sc b bools Hpure Hside Ec Hv Henv Hc) as (Lc & bc & ELc & Rc & Hcc & _ & Vc).
  destruct bools as [|t0 ts]; [discriminate|]. cbn [map] in Vc. injection Vc as V0 Vts.
  apply (sim_flat_prefix XS sgm [] outm s sc _ b bc Lc ELc (fun rest res => runs_straight Lc b bc [] rest res Rc)).
  destruct (branch_flat XS sgm outm els elifs false (bs "if") Hfe Hfb (walk_flat XS sgm outm els Hfe elifs Hfb) eq_refl
              b0 a0 t0 cs ts sc sb0 sch sel sg bc Hf0 Eb0 Ech Eel V0 Vts Henv Hcc IHch) as (B & T & H).
  exists ([LIf (bs "if") a0] ++ B ++ T). exact H.
Qed.

Theorem slx_flat XS sg body sg' out : slx XS sg body sg' out -> steps_flat XS sg (go_fix body) sg' out.
Proof.
  induction 1 as [sg|sg x e v r sg' out Hp Hs Hx Hv Henv' _ IH|sg x e v r sg' out Hp Hs Hx Hv Henv' _ IH|sg es vals r sg' out Hp Hs Hv _ IH
                 |sg c0 b0 elifs els bools sgm outm r sg' out Hfrag Hside Hv _ IHch _ IHr].
  - exact (straight_flat XS sg _ sg [] (straight_nil XS sg)).
  - exact (steps_flat_seq XS sg _ _ [] _ sg' out (straight_flat _ _ _ _ _ (assign_preserved XS sg x e v Hp Hs Hx Hv Henv')) IH).
  - (* a definition is translated as the assignment is *)
    exact (steps_flat_seq XS sg _ _ [] _ sg' out (straight_flat _ _ _ _ _ (assign_preserved XS sg x e v Hp Hs Hx Hv Henv')) IH).
  - rewrite app_assoc. exact (steps_flat_seq XS sg _ _ _ _ sg' out (straight_flat _ _ _ _ _ (print_preserved XS sg es vals Hp Hs Hv)) IH).
  - exact (steps_flat_seq XS sg _ sgm outm _ sg' out (if_flat XS sg c0 b0 elifs els bools sgm outm Hfrag Hside Hv IHch) IHr).
Qed.

Theorem conditionals_preserved : forall XS sg body sg' out s u s' b,
  slx XS sg body sg' out -> go_fix body s = TOk u s' -> env_ok sg -> ctx_ok XS sg b s ->
  exists X b', b_code s' = b_code s ++ X /\ runs b X (b', out) /\ represents sg' b' s' XS.
Proof.
  intros XS sg body sg' out s u s' b H Ht Henv Hc.
  destruct (slx_flat XS sg body sg' out H s u s' b Ht Henv Hc) as (X & b' & E & _ & Cc & Hk).
  exists X, b'. split; [exact (x_code _ _ _ E)|]. split; [|exact (c_rep _ _ _ _ Cc)].
  pose proof (Hk [] (b', []) (ex_intro _ 1%nat eq_refl)) as Hr.
  rewrite app_nil_r in Hr. rewrite prepend_end in Hr. exact Hr.
Qed.
