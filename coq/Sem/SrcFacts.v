(* Facts about the reference semantics (specification sanity). *)
From Verif Require Import Front.Ast Sem.Src.
From Coq Require Import ZArith Lia.
Open Scope Z_scope.

Definition int64_min : Z := -9223372036854775808.
Definition int64_max : Z := 9223372036854775807.

(* two's complement wrapping to the interval [-m, m): wrap64 is the case m = 2^63; set /A of cmd.exe
   (to_i32 of Cmd/CmdModel.v) is the case m = 2^31 *)
Definition wrap (m z : Z) : Z := (z + m) mod (2 * m) - m.

Lemma wrap_id m z : - m <= z <= m - 1 -> wrap m z = z.
Proof. intro H. unfold wrap. rewrite Z.mod_small by lia. apply Z.add_simpl_r. Qed.

Lemma wrap_range m z : 0 < m -> - m <= wrap m z <= m - 1.
Proof. intro H. unfold wrap. pose proof (Z.mod_pos_bound (z + m) (2 * m)). lia. Qed.

Lemma wrap_congruent m z : (wrap m z - z) mod (2 * m) = 0.
Proof.
  unfold wrap. pose proof (Z_div_mod_eq_full (z + m) (2 * m)) as E.
  replace ((z + m) mod (2 * m) - m - z) with (- ((z + m) / (2 * m)) * (2 * m)) by lia.
  apply Z_mod_mult.
Qed.

Lemma wrap_wrap k n z : wrap n (wrap (k * n) z) = wrap n z.
Proof.
  unfold wrap. pose proof (Z_div_mod_eq_full (z + k * n) (2 * (k * n))) as E.
  replace ((z + k * n) mod (2 * (k * n)) - k * n + n)
    with (z + n + - (k * ((z + k * n) / (2 * (k * n)))) * (2 * n)) by lia.
  rewrite Z_mod_plus_full. reflexivity.
Qed.

Lemma wrap64_range z : int64_min <= wrap64 z <= int64_max.
Proof. exact (wrap_range 9223372036854775808 z eq_refl). Qed.

Lemma wrap64_congruent z : (wrap64 z - z) mod 18446744073709551616 = 0.
Proof. exact (wrap_congruent 9223372036854775808 z). Qed.

Lemma wrap64_id z : int64_min <= z <= int64_max -> wrap64 z = z.
Proof. exact (wrap_id 9223372036854775808 z). Qed.

(* arithmetic of the reference semantics is Go's int64 arithmetic: results stay in range, equal the
   mathematical result whenever that is representable, division truncates toward zero *)
Theorem arith_in_range op a b z : arith op a b = Some z -> int64_min <= a <= int64_max -> int64_min <= b <= int64_max ->
  int64_min <= z <= int64_max.
Proof.
  intros H Ha Hb. destruct op; simpl in H; try (inversion H; apply wrap64_range).
  - destruct (b =? 0); [discriminate|]. inversion H. apply wrap64_range.
  - destruct (b =? 0) eqn:E; [discriminate|]. inversion H; subst.
    apply Z.eqb_neq in E. pose proof (Z.rem_bound_abs a b E). unfold int64_min, int64_max in *. lia.
Qed.

Theorem arith_exact_add a b : int64_min <= a + b <= int64_max -> arith OpAdd a b = Some (a + b).
Proof. intro H. simpl. rewrite wrap64_id by exact H. reflexivity. Qed.

Theorem arith_div_truncates a b : b <> 0 -> int64_min <= Z.quot a b <= int64_max -> arith OpDiv a b = Some (Z.quot a b).
Proof. intros Hb H. simpl. destruct (b =? 0) eqn:E; [apply Z.eqb_eq in E; contradiction|]. rewrite wrap64_id by exact H. reflexivity. Qed.
