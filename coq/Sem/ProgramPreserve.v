(* Whole programs (C01/C02 capstone): definitions and top-level statements in order.  If the interpreter of the source
   semantics (Sem/JRun.v: jprogram) answers for a program that passes the name checks (program_static), the emitted
   script - run by the flat shell machine with the script's own functions as call oracle - prints exactly that. *)
From Verif Require Import Base.Bytestr Base.DecFacts Front.Ast Back.BashLines Back.Transpile Back.BashConv Back.BashFacts
  Back.NameFacts Sem.ExprPreserve Sem.Words Sem.StmtPreserve Sem.FlatSem Sem.IfPreserve
  Sem.FlatLoop Sem.LoopPreserve Sem.CallPreserve Sem.JRun.
From Coq Require Import ZArith.
Open Scope N_scope.

(* Decidable conditions under which no variable of the program meets a name of the converter.  pre p n: n begins with p
   (helpers _h<k>, loop flags _fv<k>, return registers _rv<i> and parking variables _ma<i> are told by their prefix).
   mangled_like n: n has the shape f<digits>_<rest> that varName of /repo converters/bash/converter.go gives the local
   names of a function ("f%d_%s" of the function counter and the name); after_digits r: digits, if any, then an underscore. *)
Definition pre (p n : bytes) : bool := beq p (firstn (length p) n).
Fixpoint after_digits (r : bytes) : bool :=
  match r with c :: t => if is_digit c then after_digits t else N.eqb c 95 | [] => false end.
Definition mangled_like (n : bytes) : bool := match n with 102 :: c :: t => is_digit c && after_digits (c :: t) | _ => false end.

Lemma after_digits_app : forall ds t, forallb is_digit ds = true -> after_digits (ds ++ 95 :: t) = true.
Proof.
  induction ds as [|d r IH]; intros t H; [reflexivity|]. cbn [forallb] in H. apply andb_true_iff in H as [Hd Hr].
  cbn [app after_digits]. rewrite Hd. exact (IH t Hr).
Qed.

Lemma mangled_is_like c y : mangled_like (mangled c y) = true.
Proof.
  unfold mangled, dec_nat. pose proof (dec_N_digits (N.of_nat c)) as Hd. pose proof (dec_N_nonempty (N.of_nat c)) as Hn.
  destruct (dec_N (N.of_nat c)) as [|d ds] eqn:E; [contradiction|].
  change (bs "f" ++ (d :: ds) ++ bs "_" ++ y) with (102 :: d :: (ds ++ 95 :: y)). unfold mangled_like.
  cbn [forallb] in Hd. apply andb_true_iff in Hd as [H1 H2]. rewrite H1. cbn [andb after_digits]. rewrite H1. exact (after_digits_app ds y H2).
Qed.

Definition plain_ok (n : bytes) : bool :=
  negb (pre (bs "_h") n) && negb (pre (bs "_fv") n) && negb (pre (bs "_rv") n) && negb (pre (bs "_ma") n) && negb (mangled_like n) &&
  forallb is_word n && name_ok n.

Lemma pre_app p t : pre p (p ++ t) = true.
Proof. unfold pre. rewrite firstn_app, Nat.sub_diag, firstn_all. cbn [firstn]. rewrite app_nil_r. apply beq_refl. Qed.

Lemma plain_parts n : plain_ok n = true ->
  pre (bs "_h") n = false /\ pre (bs "_fv") n = false /\ pre (bs "_rv") n = false /\ pre (bs "_ma") n = false /\ mangled_like n = false /\
  forallb is_word n = true /\ name_ok n = true.
Proof.
  unfold plain_ok. intro H. ands H. rewrite negb_true_iff in *. repeat split; assumption.
Qed.

Lemma plain_not_mangled n c y : plain_ok n = true -> n <> mangled c y.
Proof. intros H Heq. destruct (plain_parts n H) as (_ & _ & _ & _ & M & _). subst n. rewrite mangled_is_like in M. discriminate. Qed.
Lemma plain_not_fname n k : plain_ok n = true -> n <> fname k.
Proof. intros H Heq. destruct (plain_parts n H) as (_ & M & _). subst n. unfold fname in M. rewrite pre_app in M. discriminate. Qed.
Lemma plain_not_rv n i : plain_ok n = true -> n <> rv_name i.
Proof. intros H Heq. destruct (plain_parts n H) as (_ & _ & M & _). subst n. unfold rv_name in M. rewrite pre_app in M. discriminate. Qed.
Lemma plain_not_ma n i : plain_ok n = true -> n <> ma_name i.
Proof. intros H Heq. destruct (plain_parts n H) as (_ & _ & _ & M & _). subst n. unfold ma_name in M. rewrite pre_app in M. discriminate. Qed.
Lemma plain_not_h n k : plain_ok n = true -> n <> bs "_h" ++ dec_nat k.
Proof. intros H Heq. destruct (plain_parts n H) as (M & _). subst n. rewrite pre_app in M. discriminate. Qed.
Lemma plain_fine n : plain_ok n = true -> atom_ok (ARef n) = true.
Proof. intros H. destruct (plain_parts n H) as (_ & _ & _ & _ & _ & W & N0). unfold atom_ok. rewrite W, N0. reflexivity. Qed.

Lemma toplevel_names s : b_funcs s = 0%nat ->
  (forall x, user_name s x = v_name x) /\ (forall k, helper_name s k = bs "_h" ++ dec_nat k) /\ (forall i, ma_var s i = ma_name i).
Proof. intro H. repeat split; intros; unfold user_name, helper_name, ma_var; apply var_name_toplevel; exact H. Qed.

Definition names_plain (XS : list var) : bool := forallb (fun x => plain_ok (v_name x)) XS.
Definition inj_top (G : list var) : bool :=
  forallb (fun y => forallb (fun z => negb (beq (v_name y) (v_name z)) || same_var y z) G) G.
Definition inj_fun (XS : list var) : bool :=
  forallb (fun y => forallb (fun z => negb (Bool.eqb (v_global y) (v_global z) && beq (v_name y) (v_name z)) || same_var y z) XS) XS.

Lemma names_plain_in XS x : names_plain XS = true -> In x XS -> plain_ok (v_name x) = true.
Proof. unfold names_plain. intros H Hx. rewrite forallb_forall in H. exact (H x Hx). Qed.

Lemma top_ctx s G mlo : b_funcs s = 0%nat -> names_plain G = true -> inj_top G = true ->
  (forall x, In x G -> var_fine s x) /\ hygienic s G /\ names_inj s G /\ fresh_flags (b_for_counter s) mlo G s.
Proof.
  intros Hf Hp Hi. destruct (toplevel_names s Hf) as (Hu & Hh & Hm).
  split; [intros x Hx; unfold var_fine; rewrite Hu; exact (plain_fine _ (names_plain_in G x Hp Hx))|].
  split; [intros x k Hx; rewrite Hu, Hh; exact (plain_not_h _ k (names_plain_in G x Hp Hx))|].
  split.
  { intros y z Hy Hz Heq. rewrite !Hu in Heq. unfold inj_top in Hi. rewrite forallb_forall in Hi. specialize (Hi y Hy).
    rewrite forallb_forall in Hi. specialize (Hi z Hz). rewrite Heq, beq_refl in Hi. exact Hi. }
  split; [intros x k Hx; rewrite Hu; exact (plain_not_fname _ k (names_plain_in G x Hp Hx))|].
  split; [intros x i Hx; rewrite Hu; exact (plain_not_rv _ i (names_plain_in G x Hp Hx))|].
  split; [apply le_n|].
  split; [intros x c y Hx _; rewrite Hu; exact (plain_not_mangled _ c y (names_plain_in G x Hp Hx))|].
  intros x i Hx. rewrite Hu, Hm. exact (plain_not_ma _ i (names_plain_in G x Hp Hx)).
Qed.

Lemma user_name_in_fun sf x : (0 < b_funcs sf)%nat -> user_name sf x = if v_global x then v_name x else mangled (b_func_counter sf) (v_name x).
Proof. intro H. unfold user_name. destruct (v_global x); [apply var_name_global|apply var_name_local; exact H]. Qed.

Lemma mangled_fine c n : forallb is_word n = true -> atom_ok (ARef (mangled c n)) = true.
Proof.
  intro H. unfold atom_ok, mangled. apply andb_true_iff. split; [|reflexivity].
  rewrite !forallb_app, H. unfold dec_nat. rewrite (digits_word _ (dec_N_digits _)). reflexivity.
Qed.

Lemma mangled_not_fname c n k : mangled c n <> fname k.
Proof. unfold mangled, fname. intro H. cbn in H. inversion H. Qed.
Lemma mangled_not_rv c n i : mangled c n <> rv_name i.
Proof. unfold mangled, rv_name. intro H. cbn in H. inversion H. Qed.

Lemma fun_ctx sf XS : (0 < b_funcs sf)%nat -> names_plain XS = true -> inj_fun XS = true ->
  (forall x, In x XS -> var_fine sf x) /\ hygienic sf XS /\ names_inj sf XS /\ fresh_flags (b_for_counter sf) (b_func_counter sf) XS sf.
Proof.
  intros Hf Hp Hi. set (cf := b_func_counter sf).
  assert (forall x, In x XS -> plain_ok (v_name x) = true) as P by (intros x Hx; exact (names_plain_in XS x Hp Hx)).
  split.
  { intros x Hx. unfold var_fine. rewrite (user_name_in_fun sf x Hf). destruct (v_global x); [exact (plain_fine _ (P x Hx))|].
    destruct (plain_parts _ (P x Hx)) as (_ & _ & _ & _ & _ & W & _). exact (mangled_fine _ _ W). }
  split.
  { intros x k Hx. rewrite (user_name_in_fun sf x Hf), (helper_name_local sf k Hf). destruct (v_global x).
    - exact (plain_not_mangled _ _ _ (P x Hx)).
    - intro Heq. apply mangled_inj in Heq as [_ Hn]. exact (plain_not_h _ k (P x Hx) Hn). }
  split.
  { intros y z Hy Hz Heq. rewrite (user_name_in_fun sf y Hf), (user_name_in_fun sf z Hf) in Heq.
    unfold inj_fun in Hi. rewrite forallb_forall in Hi. specialize (Hi y Hy). rewrite forallb_forall in Hi. specialize (Hi z Hz).
    destruct (v_global y) eqn:Gy, (v_global z) eqn:Gz.
    - rewrite Heq, beq_refl in Hi. exact Hi.
    - exfalso. exact (plain_not_mangled _ _ _ (P y Hy) Heq).
    - exfalso. exact (plain_not_mangled _ _ _ (P z Hz) (eq_sym Heq)).
    - apply mangled_inj in Heq as [_ Hn]. rewrite Hn, beq_refl in Hi. exact Hi. }
  split.
  { intros x k Hx. rewrite (user_name_in_fun sf x Hf). destruct (v_global x); [exact (plain_not_fname _ k (P x Hx))|apply mangled_not_fname]. }
  split.
  { intros x i Hx. rewrite (user_name_in_fun sf x Hf). destruct (v_global x); [exact (plain_not_rv _ i (P x Hx))|apply mangled_not_rv]. }
  split; [apply le_n|].
  split.
  { intros x c y Hx Hc. rewrite (user_name_in_fun sf x Hf). destruct (v_global x); [exact (plain_not_mangled _ c y (P x Hx))|].
    intro Heq. apply mangled_inj in Heq as [Hcc _]. fold cf in Hc. lia. }
  intros x i Hx. rewrite (user_name_in_fun sf x Hf). unfold ma_var. rewrite (var_name_local sf _ Hf). destruct (v_global x).
  - exact (plain_not_mangled _ _ _ (P x Hx)).
  - intro Heq. apply mangled_inj in Heq as [_ Hn]. exact (plain_not_ma _ i (P x Hx) Hn).
Qed.

(* fun_ok from checks that are computations, for a definition whose states and lines are known *)
Lemma fun_ok_intro script F X tail :
  (0 < b_funcs (fd_sf F))%nat -> names_plain (fd_vars F) = true -> inj_fun (fd_vars F) = true ->
  (forall p, In p (fd_params F) -> v_global p = false /\ In p (fd_vars F)) ->
  go_fix (fd_body F) (fd_sf F) = TOk tt (fd_sr F) -> frag2_all (fd_body F) = true ->
  b_code (fd_sr F) = b_code (fd_sf F) ++ X ->
  find_def (fd_name F) script = Some (param_lines (fd_num F) (map v_name (fd_params F)) 1 ++ X ++ [LClose] ++ tail) ->
  fun_ok script F.
Proof.
  intros Hfun Hp Hi Hps Hgo Hfrag Hx Hfind. destruct (fun_ctx (fd_sf F) (fd_vars F) Hfun Hp Hi) as (Fi & Hy & Inj & Fr).
  repeat (split; [assumption|]). exists X, tail. split; assumption.
Qed.

Lemma params_okb_ok vars params : forallb (fun p => negb (v_global p) && inb p vars) params = true ->
  forall p, In p params -> v_global p = false /\ In p vars.
Proof.
  intros H p Hp. rewrite forallb_forall in H. specialize (H p Hp). apply andb_true_iff in H as [Hg Hin].
  split; [apply negb_true_iff; exact Hg|exact (inb_In p vars Hin)].
Qed.

Definition fun_vars (G : list var) (params : list var) (body : list stmt) : list var :=
  G ++ filter (fun x => negb (v_global x)) (params ++ stmts_vars body).

Definition item_static (G : list var) (names : list bytes) (st : stmt) : bool :=
  match st with
  | SFunc f rets params (x :: body) pub =>
      frag2_all (x :: body) && names_plain (fun_vars G params (x :: body)) && inj_fun (fun_vars G params (x :: body)) &&
      forallb (fun p => negb (v_global p)) params && negb (existsb (beq f) names)
  | SFunc _ _ _ [] _ => false
  | _ => frag2 st
  end.

Fixpoint items_static (G : list var) (names : list bytes) (items : list stmt) : bool :=
  match items with
  | [] => true
  | st :: r => item_static G names st &&
               items_static G (match st with SFunc f _ _ _ _ => names ++ [f] | _ => names end) r
  end.

Lemma items_code_ext G : forall items names s s_end, items_static G names items = true -> go_fix items s = TOk tt s_end ->
  exists Xr, b_code s_end = b_code s ++ Xr.
Proof.
  induction items as [|st r IH]; intros names s s_end Hs H; [mr H; exists []; rewrite app_nil_r; reflexivity|].
  cbn [items_static] in Hs. apply andb_true_iff in Hs as [H1 H2]. cbn [go_fix] in H. mb H as u1 s1 Ht Hr. destruct u1.
  destruct (IH _ s1 s_end H2 Hr) as (Xr & Er).
  assert (exists X1, b_code s1 = b_code s ++ X1) as (X1 & E1).
  { destruct st; try (destruct (frag2_e3 _ H1 s tt s1 Ht) as (X & E & _ & _); exists X; exact (cx_code _ _ _ E)).
    cbn [item_static] in H1. destruct body as [|x body]; [discriminate|]. ands H1.
    destruct (func_decompose name rets params x body public s s1 Ht H1) as (sr & X & _ & _ & _ & Ec & _). eexists. exact Ec. }
  exists (X1 ++ Xr). rewrite Er, E1, app_assoc. reflexivity.
Qed.

(* If the interpreter answers for code that stands at top level behind the definitions defs, the code's lines print that. *)
Lemma top_code_preserved fuel defs script d mlo G body sg sg' out s s' b :
  (forall F, In F defs -> fun_ok script F) ->
  b_funcs s = 0%nat -> names_plain G = true -> inj_top G = true -> represents sg b s G -> env_ok sg ->
  jrun fuel G (jcall_at defs fuel d (b_for_counter s) mlo G) (Prog body) sg = Some (sg', out, SN) ->
  go_fix body s = TOk tt s' ->
  exists X b', cext s s' X /\ represents sg' b' s' G /\ env_ok sg' /\
    forall rest res, lruns (call_of script d) [] b' [] rest res -> lruns (call_of script d) [] b [] (X ++ rest) (prepend out res).
Proof.
  intros Hok Hf0 Hplain Hinj Hrep Henv Ej Hg.
  pose proof (jrun_program_sound defs fuel d _ mlo G (Prog body) sg sg' out SN Ej Henv) as HJ.
  destruct (top_ctx s G mlo Hf0 Hplain Hinj) as (Fine & Hy & Inj & Fresh).
  destruct (J_steps (call_of script d) [] (call_of_mono script d) _ mlo _ (calls_refined defs script Hok d _ mlo) G (Prog body) sg sg' out SN HJ
              s tt s' b Hg Henv (mkCtx G sg b s Fine Hrep Hy Inj) Fresh) as (X & b1 & Ex & V1 & C1 & _ & _ & Hk).
  exists X, b1. split; [exact Ex|]. split; [exact (c_rep _ _ _ _ C1)|]. split; [exact V1|].
  intros rest res Hr. exact (Hk [] rest res Hr).
Qed.

Definition nonfunc (st : stmt) : Prop := match st with SFunc _ _ _ _ _ => False | _ => True end.

Lemma item_cases st : nonfunc st \/ exists f rets params body pub, st = SFunc f rets params body pub.
Proof. destruct st; try (left; exact I). right. repeat eexists. Qed.

Lemma jtop_stmt_eq fuel G st r s defs sg acc : nonfunc st ->
  jtop fuel G (st :: r) s defs sg acc =
  match st_of (t_stmt bash_conv st s) with
  | Some s' =>
      match jrun fuel G (jcall_at defs fuel 40 (b_for_counter s) (S (b_func_counter s)) G) (Prog [st]) sg with
      | Some (sg', o, SN) => jtop fuel G r s' defs sg' (acc ++ o)
      | _ => None
      end
  | None => None
  end.
Proof. destruct st; try reflexivity; intros []. Qed.

Lemma static_stmt_eq G names st r : nonfunc st -> items_static G names (st :: r) = frag2 st && items_static G names r.
Proof. destruct st; try reflexivity; intros []. Qed.

Lemma params_in_fun_vars G params body : forallb (fun p => negb (v_global p)) params = true ->
  forall p, In p params -> v_global p = false /\ In p (fun_vars G params body).
Proof.
  intros H p Hp. rewrite forallb_forall in H. pose proof (H p Hp) as Hg. apply negb_true_iff in Hg. split; [exact Hg|].
  apply in_or_app. right. apply filter_In. split; [apply in_or_app; left; exact Hp|rewrite Hg; reflexivity].
Qed.

Section Items.
Variable fuel : nat.
Variable G : list var.
Variable script : list line.
Hypothesis Hplain : names_plain G = true.
Hypothesis Hinj : inj_top G = true.

(* between two items of the program: the converter is at top level in state s, b represents sg, the definitions whose
   lines have been emitted are those of defs, and each of them stands in the script as fun_ok asks *)
Record at_top defs s sg b : Prop := mkTop {
  t_level : b_funcs s = 0%nat;
  t_rep : represents sg b s G;
  t_env : env_ok sg;
  t_open : forall n, In (LFuncOpen n) (b_code s) -> In n (map fd_name defs);
  t_ok : forall F, In F defs -> fun_ok script F
}.

(* a definition: the machine passes its lines X without a step of the program; behind them the definition is one of those
   the script holds (later: the lines of the items that follow) *)
Lemma func_item f rets params x body pub defs s sg b s1 later :
  at_top defs s sg b -> item_static G (map fd_name defs) (SFunc f rets params (x :: body) pub) = true ->
  t_stmt bash_conv (SFunc f rets params (x :: body) pub) s = TOk tt s1 -> script = b_code s1 ++ later ->
  let sf := cv_func_start bstate atom bash_conv f (map v_name params) rets s in
  exists sr X, go_fix (x :: body) sf = TOk tt sr /\ b_code s1 = b_code s ++ X /\
    at_top (defs ++ [mkFdef f params (x :: body) (fun_vars G params (x :: body)) sf sr]) s1 sg b /\
    forall call rest res, lruns call [] b [] rest res -> lruns call [] b [] (X ++ rest) res.
Proof.
  intros [Hf0 Hrep Henv Hopen Hok] Hit Ht Hscr sf. cbn [item_static] in Hit.
  apply andb_true_iff in Hit as [Hit Hnew]. apply andb_true_iff in Hit as [Hit Hpar].
  apply andb_true_iff in Hit as [Hit Hinjf]. apply andb_true_iff in Hit as [Hfrag Hplf].
  destruct (func_decompose f rets params x body pub s s1 Ht Hfrag) as (sr & X & Hgo & Ex & [_ _ HnX] & Ec & B & C & _ & B1 & _).
  fold sf in Hgo, Ex, B, C.
  set (P := param_lines (S (b_func_counter s)) (map v_name params) 1) in *.
  assert (forallb inner (P ++ X) = true) as HnPX by (rewrite forallb_app, HnX; unfold P; rewrite param_lines_inner; reflexivity).
  exists sr, ([LFuncOpen f] ++ P ++ X ++ [LClose]). split; [exact Hgo|]. split; [exact Ec|]. split.
  - rewrite <- B1 in Hf0. constructor; [exact Hf0| |exact Henv| |].
    + destruct (toplevel_names s1 Hf0) as (Hu1 & _). rewrite B1 in Hf0. destruct (toplevel_names s Hf0) as (Hu & _).
      intros y w Hy Hw. rewrite Hu1, <- Hu. exact (Hrep y w Hy Hw).
    + intros n Hin. rewrite map_app. apply in_or_app. rewrite Ec in Hin.
      apply in_app_or in Hin as [Hin|Hin]; [left; exact (Hopen n Hin)|]. cbn [app] in Hin.
      destruct Hin as [Heq|Hin]; [right; left; inversion Heq; reflexivity|]. exfalso. rewrite app_assoc in Hin. apply in_app_or in Hin as [Hin|[Heq|[]]]; [exact (inner_no_open _ n HnPX Hin)|discriminate Heq].
    + intros F HF. apply in_app_or in HF as [HF|[<-|[]]]; [exact (Hok F HF)|].
      apply (fun_ok_intro script _ X later); cbn [fd_sf fd_sr fd_vars fd_params fd_body fd_name];
        [rewrite B; apply Nat.lt_0_succ|exact Hplf|exact Hinjf|exact (params_in_fun_vars G params _ Hpar)|exact Hgo|exact Hfrag|exact (cx_code _ _ _ Ex)|].
      unfold fd_num. cbn [fd_sf]. rewrite Hscr, Ec, C. fold P. rewrite <- !app_assoc. apply find_def_app.
      (* no earlier definition has the name f *)
      intros n Hin Heq. subst n. apply negb_true_iff in Hnew.
      assert (existsb (beq f) (map fd_name defs) = true) as Hex by (apply existsb_exists; exists f; split; [exact (Hopen f Hin)|apply beq_refl]).
      rewrite Hex in Hnew. discriminate Hnew.
  - intros call rest res [n Hn]. exists (S n). rewrite <- !app_assoc. cbn [app lrun]. rewrite app_assoc, (inner_skip_close _ rest HnPX). exact Hn.
Qed.

Theorem items_all : forall items s defs sg acc out s_end b,
  jtop fuel G items s defs sg acc = Some out -> items_static G (map fd_name defs) items = true ->
  go_fix items s = TOk tt s_end -> script = b_code s_end -> at_top defs s sg b ->
  exists Xr b' o, b_code s_end = b_code s ++ Xr /\ out = acc ++ o /\ lruns (call_of script 40) [] b [] Xr (b', o).
Proof.
  induction items as [|st r IH]; intros s defs sg acc out s_end b H Hst Hg Hscr Inv.
  { cbn [jtop] in H. inversion H; subst. mr Hg. exists [], b, []. rewrite !app_nil_r. split; [reflexivity|]. split; [reflexivity|apply lruns_nil]. }
  cbn [go_fix] in Hg. mb Hg as u1 s1 Ht Hr. destruct u1.
  destruct (item_cases st) as [Hnf|(f & rets & params & body & pub & ->)].
  - rewrite (jtop_stmt_eq fuel G st r s defs sg acc Hnf), Ht in H. cbn [st_of] in H.
    rewrite (static_stmt_eq G _ st r Hnf) in Hst. apply andb_true_iff in Hst as [Hfr Hsr].
    destruct (jrun fuel G _ (Prog [st]) sg) as [[[sg' o] g]|] eqn:Ej; [|discriminate]. destruct g; try discriminate.
    destruct Inv as [Hf0 Hrep Henv Hopen Hok].
    destruct (top_code_preserved fuel defs script 40 _ G [st] sg sg' o s s1 b Hok Hf0 Hplain Hinj Hrep Henv Ej (go_single st s s1 Ht))
      as (X & b1 & Ex & Hrep1 & Henv1 & Hk). pose proof (cx_code _ _ _ Ex) as Ec1.
    (* the lines of a statement open no definition *)
    destruct (frag2_e3 st Hfr s tt s1 Ht) as (X' & Ex' & [_ _ Hno] & _). rewrite <- (code_same_cext _ _ _ _ Ec1 Ex') in Hno.
    assert (at_top defs s1 sg' b1) as Inv1.
    { constructor; [rewrite (cx_funcs _ _ _ Ex); exact Hf0|exact Hrep1|exact Henv1| |exact Hok].
      intros n Hin. rewrite Ec1 in Hin. apply in_app_or in Hin as [Hin|Hin]; [exact (Hopen n Hin)|]. destruct (inner_no_open X n Hno Hin). }
    destruct (IH s1 defs sg' (acc ++ o) out s_end b1 H Hsr Hr Hscr Inv1) as (Xr & b' & o' & Ec & Eo & Hrun).
    exists (X ++ Xr), b', (o ++ o'). split; [rewrite Ec, Ec1, app_assoc; reflexivity|].
    split; [rewrite Eo, app_assoc; reflexivity|exact (Hk Xr (b', o') Hrun)].
  - cbn [items_static] in Hst. apply andb_true_iff in Hst as [Hit Hsr]. destruct body as [|x body]; [discriminate Hit|].
    destruct (items_code_ext G r _ s1 s_end Hsr Hr) as (later & El). rewrite <- Hscr in El.
    destruct (func_item f rets params x body pub defs s sg b s1 later Inv Hit Ht El) as (sr & X & Hgo & Ec1 & Inv1 & Hk).
    cbn [jtop] in H. rewrite Hgo, Ht in H. cbn [st_of] in H.
    destruct (IH s1 _ sg acc out s_end b H ltac:(rewrite map_app; exact Hsr) Hr Hscr Inv1) as (Xr & b' & o & Ec & Eo & Hrun).
    exists (X ++ Xr), b', o. split; [rewrite Ec, Ec1, app_assoc; reflexivity|]. split; [exact Eo|exact (Hk _ Xr (b', o) Hrun)].
Qed.
End Items.

Definition program_static (body : list stmt) : bool :=
  names_plain (prog_vars body) && inj_top (prog_vars body) && items_static (prog_vars body) [] body.

Lemma emit_bash_go body script st : emit_bash body = TOk script st ->
  exists s, go_fix body (cv_program_start bstate atom bash_conv b_init) = TOk tt s /\ b_code st = b_code s.
Proof.
  unfold emit_bash, transpile_program. intro He.
  match type of He with match ?r with _ => _ end = _ => change r with (go_fix body (cv_program_start bstate atom bash_conv b_init)) in He end.
  destruct (go_fix body (cv_program_start bstate atom bash_conv b_init)) as [u s| |]; try discriminate. destruct u.
  exists s. split; [reflexivity|]. injection He as _ Hst. subst st. reflexivity.
Qed.

(* If the interpreter of the source semantics answers out for a program whose names avoid the converter's (program_static:
   a decidable check), then the script the converter emits for it, run by the flat shell machine with the script's own
   functions as the call oracle, terminates and prints out. *)
Theorem program_preserved fuel body out script st :
  jprogram fuel body = Some out -> program_static body = true -> emit_bash body = TOk script st ->
  exists b', lruns (call_of (b_code st) 40) [] [] [] (b_code st) (b', out).
Proof.
  intros Hj Hs He. unfold program_static in Hs. apply andb_true_iff in Hs as [Hs Hit]. apply andb_true_iff in Hs as [Hp Hi].
  destruct (emit_bash_go body script st He) as (s & Eg & Ecode). rewrite Ecode.
  unfold jprogram in Hj.
  destruct (items_all fuel (prog_vars body) (b_code s) Hp Hi body _ [] (fun _ => None) [] out s [] Hj Hit Eg eq_refl) as (Xr & b' & o & Ec & Eo & Hrun).
  - constructor; [reflexivity|intros x v _ Hv; discriminate Hv|intros x v Hv; discriminate Hv|intros n []|intros F []].
  - exists b'. cbn [app] in Eo. subst o. assert (Xr = b_code s) as EX by (rewrite Ec; reflexivity). rewrite <- EX at 2. exact Hrun.
Qed.
