(* Semantic preservation for scalar expressions (C01): the lines the Bash converter emits for a
   call-free scalar expression compute, in the shell, the value the expression has in the source. *)
From Verif Require Import Base.Bytestr Base.DecFacts Front.Ast Back.BashLines Back.Transpile Back.BashConv Back.BashFacts
  Sem.Src Sem.SrcFacts Sem.BashSem.
From Coq Require Import ZArith.
Open Scope N_scope.

(* the fragment: literals, variables, groups, !, arithmetic, string +, comparisons, && ||, itoa *)
Fixpoint pure (e : expr) : bool :=
  match e with
  | EBool _ | EInt _ | EStr _ | EVar _ => true
  | EGroup x | EUnary x | EItoa x => pure x
  | EBinary l _ r | ECompare l _ r | ELogical l _ r => pure l && pure r
  | ELen x => pure x && is_string (type_of x)          (* len of a string *)
  | _ => false
  end.

Definition senv := var -> option value.

Definition vkind (v : value) : dtype :=
  match v with VInt _ => DInt | VBool _ => DBool | VStr _ => DString | VSlice _ => DUnknown end.

(* the value of a pure expression in a source environment *)
Fixpoint peval (sg : senv) (e : expr) : option value :=
  match e with
  | EBool b => Some (VBool b)
  | EInt z => Some (VInt z)
  | EStr s => Some (VStr s)
  | EVar x => sg x
  | EGroup x => peval sg x
  | EUnary x => match peval sg x with Some (VBool b) => Some (VBool (negb b)) | _ => None end
  | EBinary l op r =>
      match peval sg l, peval sg r with
      | Some (VInt a), Some (VInt b) => match arith op a b with Some z => Some (VInt z) | None => None end
      | Some (VStr a), Some (VStr b) => match op with OpAdd => Some (VStr (a ++ b)) | _ => None end
      | _, _ => None
      end
  | ECompare l op r =>
      match peval sg l, peval sg r with
      | Some a, Some b => match compare_vals op a b with Some t => Some (VBool t) | None => None end
      | _, _ => None
      end
  | ELogical l op r =>
      match peval sg l, peval sg r with
      | Some (VBool a), Some (VBool b) => Some (VBool (match op with LAnd => a && b | LOr => a || b end))
      | _, _ => None
      end
  | EItoa x => match peval sg x with Some (VInt z) => Some (VStr (dec_Z z)) | _ => None end
  | ELen x =>
      match peval sg x with
      | Some (VStr t) => if (Z.of_nat (length t) <=? int64_max)%Z then Some (VInt (Z.of_nat (length t))) else None
      | _ => None
      end
  | _ => None
  end.

Definition text (v : value) : bytes := match text_of v with Some t => t | None => [] end.

Definition in_range (v : value) : Prop :=
  match v with VInt z => (int64_min <= z <= int64_max)%Z | _ => True end.

(* static types agree with the values, integers are int64 *)
Definition env_ok (sg : senv) : Prop :=
  forall x v, sg x = Some v -> vkind v = dt (v_type x) /\ is_slice (v_type x) = false /\ in_range v.

Fixpoint lits_ok (e : expr) : Prop :=
  match e with
  | EInt z => (int64_min <= z <= int64_max)%Z
  | EGroup x | EUnary x | EItoa x | ELen x => lits_ok x
  | EBinary l _ r | ECompare l _ r | ELogical l _ r => lits_ok l /\ lits_ok r
  | _ => True
  end.

Fixpoint vars_of (e : expr) : list var :=
  match e with
  | EVar x => [x]
  | EGroup x | EUnary x | EItoa x | ELen x => vars_of x
  | EBinary l _ r | ECompare l _ r | ELogical l _ r => vars_of l ++ vars_of r
  | _ => []
  end.

Definition helper_name (s : bstate) (k : nat) : bytes := var_name s (bs "_h" ++ dec_nat k) false.
Definition user_name (s : bstate) (x : var) : bytes := var_name s (v_name x) (v_global x).

(* the shell environment represents the source environment on the variables xs *)
Definition represents (sg : senv) (b : shenv) (s : bstate) (xs : list var) : Prop :=
  forall x v, In x xs -> sg x = Some v -> sh_get (user_name s x) b = text v.

(* no user variable is spelled like a helper of the converter *)
Definition hygienic (s : bstate) (xs : list var) : Prop :=
  forall x k, In x xs -> user_name s x <> helper_name s k.

Lemma helper_name_inj s k1 k2 : helper_name s k1 = helper_name s k2 -> k1 = k2.
Proof.
  unfold helper_name, var_name, dec_nat. intro H.
  destruct ((0 <? b_funcs s)%nat && negb false);
    [apply (app_inv_head (bs "f")), (app_inv_head (dec_N _)), (app_inv_head (bs "_")) in H|];
    apply (app_inv_head (bs "_h")), dec_N_inj, Nat2N.inj in H; exact H.
Qed.

Lemma helper_name_ext s s' ls k : ext s s' ls -> helper_name s' k = helper_name s k.
Proof. intros E. unfold helper_name, var_name. rewrite (x_funcs _ _ _ E), (x_fcnt _ _ _ E). reflexivity. Qed.

Lemma user_name_ext s s' ls x : ext s s' ls -> user_name s' x = user_name s x.
Proof. intros E. unfold user_name, var_name. rewrite (x_funcs _ _ _ E), (x_fcnt _ _ _ E). reflexivity. Qed.

(* what may be read through an atom produced so far *)
Definition atom_stable (s : bstate) (xs : list var) (hi : nat) (a : atom) : Prop :=
  match a with
  | ALit _ => True
  | ARef n => (exists x, In x xs /\ n = user_name s x) \/ (exists k, (k < hi)%nat /\ n = helper_name s k)
  end.

(* the outcome of translating and running an expression *)
Record outcome (sg : senv) (s s' : bstate) (b : shenv) (xs : list var) (v : value) (vs : list atom) : Prop := mkOut {
  o_lines : list line;
  o_atom : atom;
  o_env : shenv;
  o_one : vs = [o_atom];
  o_ext : ext s s' o_lines;
  o_mono : (b_var_counter s <= b_var_counter s')%nat;
  o_run : exec_lines b o_lines = Some o_env;
  o_value : atom_text o_env o_atom = text v;
  o_frame : forall n, (forall k, (b_var_counter s <= k < b_var_counter s')%nat -> n <> helper_name s k) -> sh_get n o_env = sh_get n b;
  o_stable : atom_stable s xs (b_var_counter s') o_atom
}.

Lemma helper_assign_spec mk s a s' :
  helper_assign mk s = (a, s') ->
  a = ARef (helper_name s (b_var_counter s)) /\ ext s s' [LAssign (helper_name s (b_var_counter s)) mk]
  /\ b_var_counter s' = S (b_var_counter s).
Proof.
  unfold helper_assign, next_helper. intro H. inversion H; subst; clear H.
  split; [reflexivity|]. split; [|reflexivity]. constructor; reflexivity.
Qed.

Lemma stable_weaken s xs hi hi' a : atom_stable s xs hi a -> (hi <= hi')%nat -> atom_stable s xs hi' a.
Proof. destruct a; [auto|]. intros [H|(k & Hk & E)] Hle; [left; exact H|right; exists k; split; [lia|exact E]]. Qed.

Lemma stable_ext s s1 ls xs hi a : ext s s1 ls -> atom_stable s1 xs hi a -> atom_stable s xs hi a.
Proof.
  intro E. destruct a as [t|n]; [auto|]. intros [(x & Hx & ->)|(k & Hk & ->)].
  - left. exists x. split; [exact Hx|apply (user_name_ext _ _ _ x E)].
  - right. exists k. split; [exact Hk|apply (helper_name_ext _ _ _ k E)].
Qed.

Lemma stable_vars s xs ys hi a : atom_stable s xs hi a -> incl xs ys -> atom_stable s ys hi a.
Proof. destruct a; [auto|]. intros [(x & Hx & E)|H] Hi; [left; exists x; split; [apply Hi; exact Hx|exact E]|right; exact H]. Qed.

(* b' differs from b at most in the helpers numbered lo, ..., hi - 1 *)
Definition helpers_only (s : bstate) (lo hi : nat) (b b' : shenv) : Prop :=
  forall n, (forall k, (lo <= k < hi)%nat -> n <> helper_name s k) -> sh_get n b' = sh_get n b.

Lemma helpers_refl s lo hi b : helpers_only s lo hi b b.
Proof. intros n _. reflexivity. Qed.

Lemma helpers_trans s s1 ls lo mid hi b b1 b2 :
  ext s s1 ls -> (lo <= mid <= hi)%nat -> helpers_only s lo mid b b1 -> helpers_only s1 mid hi b1 b2 -> helpers_only s lo hi b b2.
Proof.
  intros E Hm F1 F2 n Hn. rewrite F2.
  - apply F1. intros k Hk. apply Hn. lia.
  - intros k Hk. rewrite (helper_name_ext _ _ _ _ E). apply Hn. lia.
Qed.

(* an atom read later still has its text: later lines only write helpers with larger numbers *)
Lemma stable_text s s1 ls xs hi hi' a (b b' : shenv) :
  atom_stable s xs hi a -> hygienic s xs -> ext s s1 ls -> helpers_only s1 hi hi' b b' -> atom_text b' a = atom_text b a.
Proof.
  intros Hs Hy E Hf. destruct a as [t|n]; [reflexivity|]. simpl. apply Hf. intros k Hk Heq. rewrite (helper_name_ext _ _ _ _ E) in Heq.
  destruct Hs as [(x & Hx & ->)|(k0 & Hk0 & ->)].
  - exact (Hy x k Hx Heq).
  - apply helper_name_inj in Heq. lia.
Qed.

(* lines that write helpers only, and more translation, keep the representation *)
Lemma represents_frame sg b b' s xs lo hi :
  represents sg b s xs -> hygienic s xs -> helpers_only s lo hi b b' -> represents sg b' s xs.
Proof.
  intros Hr Hy Hf x v Hx Hv. rewrite Hf; [apply Hr; assumption|]. intros k _ E. exact (Hy x k Hx E).
Qed.

Lemma represents_ext sg b s s' ls xs : ext s s' ls -> represents sg b s xs -> represents sg b s' xs.
Proof. intros E H x v Hx Hv. rewrite (user_name_ext _ _ _ x E). exact (H x v Hx Hv). Qed.

Lemma hygienic_ext s s' ls xs : ext s s' ls -> hygienic s xs -> hygienic s' xs.
Proof. intros E H x k Hx. rewrite (user_name_ext _ _ _ x E), (helper_name_ext _ _ _ k E). exact (H x k Hx). Qed.

Lemma sh_get_set_same n v b : sh_get n (sh_set n v b) = v.
Proof. unfold sh_set. simpl. rewrite beq_refl. reflexivity. Qed.

Lemma sh_get_set_other n m v b : n <> m -> sh_get n (sh_set m v b) = sh_get n b.
Proof. intro H. unfold sh_set. simpl. destruct (beq n m) eqn:E; [apply beq_eq in E; contradiction|reflexivity]. Qed.

(* finishing an expression with lines that write one new helper *)
Lemma finish_with sg s s1 s2 (b b1 b2 : shenv) xs ls1 ls2 v :
  ext s s1 ls1 -> (b_var_counter s <= b_var_counter s1)%nat ->
  exec_lines b ls1 = Some b1 -> helpers_only s (b_var_counter s) (b_var_counter s1) b b1 ->
  ext s1 s2 ls2 -> b_var_counter s2 = S (b_var_counter s1) -> exec_lines b1 ls2 = Some b2 ->
  sh_get (helper_name s (b_var_counter s1)) b2 = text v ->
  (forall m, m <> helper_name s (b_var_counter s1) -> sh_get m b2 = sh_get m b1) ->
  outcome sg s s2 b xs v [ARef (helper_name s (b_var_counter s1))].
Proof.
  intros E1 M1 R1 F1 E2 C2 R2 V2 F2.
  refine (mkOut sg s s2 b xs v _ (ls1 ++ ls2) (ARef (helper_name s (b_var_counter s1))) b2 eq_refl (ext_trans _ _ _ _ _ E1 E2) _ _ V2 _ _).
  - lia.
  - rewrite exec_lines_app, R1. exact R2.
  - intros m Hm. rewrite F2; [|apply Hm; lia]. apply F1. intros k Hk. apply Hm. lia.
  - right. exists (b_var_counter s1). split; [lia|reflexivity].
Qed.

Lemma finish_with_helper sg s s1 s2 (b b1 : shenv) xs ls1 mk a v :
  ext s s1 ls1 -> (b_var_counter s <= b_var_counter s1)%nat ->
  exec_lines b ls1 = Some b1 -> helpers_only s (b_var_counter s) (b_var_counter s1) b b1 ->
  helper_assign mk s1 = (a, s2) -> eval_rhs b1 mk = Some (text v) ->
  outcome sg s s2 b xs v [a].
Proof.
  intros E1 M1 R1 F1 Hh Hev.
  destruct (helper_assign_spec _ _ _ _ Hh) as (-> & E2 & C2). rewrite (helper_name_ext _ _ _ _ E1) in *.
  apply (finish_with sg s s1 s2 b b1 (sh_set (helper_name s (b_var_counter s1)) (text v) b1) xs ls1 _ v E1 M1 R1 F1 E2 C2).
  - cbn [exec_lines exec_line]. rewrite Hev. reflexivity.
  - apply sh_get_set_same.
  - intros m Hm. apply sh_get_set_other. exact Hm.
Qed.

(* len of a string: the helper first takes the string, then its length *)
Lemma string_len_spec v s a s' :
  cv_string_len bstate atom bash_conv v s = (a, s') ->
  a = ARef (helper_name s (b_var_counter s))
  /\ ext s s' [LAssign (helper_name s (b_var_counter s)) (RAtom v); LAssign (helper_name s (b_var_counter s)) (RStrLen (helper_name s (b_var_counter s)))]
  /\ b_var_counter s' = S (b_var_counter s).
Proof.
  unfold bash_conv. cbn [cv_string_len]. intro H. inversion H; subst; clear H. split; [reflexivity|]. split; [|reflexivity].
  exact (ext_trans _ _ _ _ _ (ext_trans _ _ _ [] _ (ext_next_helper s) (ext_add_line _ _)) (ext_add_line _ _)).
Qed.

Lemma text_bool t : text (VBool t) = bool_text t. Proof. destruct t; reflexivity. Qed.

Lemma int_of_bool_text t : int_of_text (bool_text t) = Some (if t then 1 else 0)%Z.
Proof. destruct t; reflexivity. Qed.

Lemma int_of_dec z : in_range (VInt z) -> int_of_text (text (VInt z)) = Some z.
Proof. intro H. apply atoi_dec_Z. exact H. Qed.

Lemma pure_ind (P : expr -> Prop) :
  (forall b, P (EBool b)) -> (forall z, P (EInt z)) -> (forall t, P (EStr t)) ->
  (forall x, pure x = true -> P x -> P (EUnary x)) ->
  (forall l op r, pure l = true -> pure r = true -> P l -> P r -> P (EBinary l op r)) ->
  (forall l op r, pure l = true -> pure r = true -> P l -> P r -> P (ECompare l op r)) ->
  (forall l op r, pure l = true -> pure r = true -> P l -> P r -> P (ELogical l op r)) ->
  (forall x, P (EVar x)) ->
  (forall x, pure x = true -> P x -> P (EGroup x)) ->
  (forall x, pure x = true -> is_string (type_of x) = true -> P x -> P (ELen x)) ->
  (forall x, pure x = true -> P x -> P (EItoa x)) ->
  forall e, pure e = true -> P e.
Proof.
  intros Hb Hz Hs Hu Hbin Hcmp Hlog Hv Hg Hlen Hi. induction e; intro Hp; cbn [pure] in Hp; try discriminate; auto;
    apply andb_true_iff in Hp as [H1 H2]; auto.
Qed.

Lemma peval_typed sg : env_ok sg -> forall e, pure e = true -> forall v, lits_ok e -> peval sg e = Some v ->
  vkind v = dt (type_of e) /\ is_slice (type_of e) = false /\ in_range v.
Proof.
  intros Henv e Hp. pattern e. revert e Hp. apply pure_ind;
    [ intros b0 | intros z | intros str0 | intros x Hp IHe | intros e1 op e2 Hp1 Hp2 IHe1 IHe2 | intros e1 op e2 Hp1 Hp2 IHe1 IHe2
    | intros e1 op e2 Hp1 Hp2 IHe1 IHe2 | intros x | intros x Hp IHe | intros x Hp Hstr IHe | intros x Hp IHe ];
    intros val Hl H; cbn [peval] in H.
  1-3: inversion H; subst; simpl; auto.
  - destruct (peval sg x) as [[| t | |]|] eqn:E; try discriminate. inversion H; subst. exact (IHe _ Hl eq_refl).
  - destruct Hl as [Hl1 Hl2].
    destruct (peval sg e1) as [[a| |a|]|] eqn:E1; try discriminate; destruct (peval sg e2) as [[b| |b|]|] eqn:E2; try discriminate.
    + destruct (arith op a b) as [z|] eqn:Ea; [|discriminate]. inversion H; subst.
      destruct (IHe1 _ Hl1 eq_refl) as (A & B & C). destruct (IHe2 _ Hl2 eq_refl) as (_ & _ & C2).
      split; [exact A|]. split; [exact B|]. exact (arith_in_range op a b z Ea C C2).
    + destruct op; try discriminate. inversion H; subst. exact (IHe1 _ Hl1 eq_refl).
  - destruct (peval sg e1) as [a|]; [|discriminate]. destruct (peval sg e2) as [b|]; [|discriminate].
    destruct (compare_vals op a b); [|discriminate]. inversion H; subst. simpl. auto.
  - destruct (peval sg e1) as [[| a | |]|]; try discriminate. destruct (peval sg e2) as [[| b | |]|]; try discriminate.
    inversion H; subst. simpl. auto.
  - exact (Henv _ _ H).
  - apply IHe; assumption.
  - destruct (peval sg x) as [[| |t|]|]; try discriminate. destruct (Z.of_nat (length t) <=? int64_max)%Z eqn:El; [|discriminate].
    inversion H; subst. apply Z.leb_le in El. simpl. split; [reflexivity|]. split; [reflexivity|]. unfold int64_min. lia.
  - destruct (peval sg x) as [[z| | |]|]; try discriminate. inversion H; subst. simpl. auto.
Qed.

Lemma incl_app_r {A} (a b : list A) : incl b (a ++ b). Proof. intros x H. apply in_or_app. right. exact H. Qed.

Lemma represents_incl sg b s xs ys : represents sg b s ys -> incl xs ys -> represents sg b s xs.
Proof. intros H Hi x v Hx. apply H. apply Hi. exact Hx. Qed.
Lemma hygienic_incl s xs ys : hygienic s ys -> incl xs ys -> hygienic s xs.
Proof. intros H Hi x k Hx. apply H. apply Hi. exact Hx. Qed.

Lemma outcome_incl sg s s' b xs ys v vs : outcome sg s s' b xs v vs -> incl xs ys -> outcome sg s s' b ys v vs.
Proof.
  intros [ls a b' H1 H2 H3 H4 H5 H6 H7] Hi.
  exact (mkOut sg s s' b ys v vs ls a b' H1 H2 H3 H4 H5 H6 (stable_vars _ _ _ _ _ H7 Hi)).
Qed.

Definition preserved (e : expr) : Prop :=
  forall sg used s vs s' b v,
  t_expr bash_conv e used s = TOk vs s' -> peval sg e = Some v -> env_ok sg -> lits_ok e ->
  represents sg b s (vars_of e) -> hygienic s (vars_of e) ->
  outcome sg s s' b (vars_of e) v vs.

(* a binary operator: the second operand runs in the environment the first left, the first atom keeps its text, and the
   converter method m, given atoms that hold the well-typed values of the operands, assigns to a helper what evaluates
   to the result *)
Lemma binary_preserved e1 e2 (m : atom -> atom -> M (St:=bstate) atom) sg s s' b v1 v2 v vs :
  pure e1 = true -> pure e2 = true -> preserved e1 -> preserved e2 ->
  mbind (t_expr bash_conv e1 true) (fun vl => mbind (t_expr bash_conv e2 true) (fun vr =>
    mbind (m (first_value bash_conv vl) (first_value bash_conv vr)) (fun a => mret [a]))) s = TOk vs s' ->
  peval sg e1 = Some v1 -> peval sg e2 = Some v2 -> env_ok sg -> lits_ok e1 /\ lits_ok e2 ->
  represents sg b s (vars_of e1 ++ vars_of e2) -> hygienic s (vars_of e1 ++ vars_of e2) ->
  (forall a1 a2 s2 b2 a, m a1 a2 s2 = TOk a s' -> atom_text b2 a1 = text v1 -> atom_text b2 a2 = text v2 ->
     vkind v1 = dt (type_of e1) -> is_slice (type_of e1) = false -> in_range v1 -> in_range v2 ->
     exists mk, helper_assign mk s2 = (a, s') /\ eval_rhs b2 mk = Some (text v)) ->
  outcome sg s s' b (vars_of e1 ++ vars_of e2) v vs.
Proof.
  intros Hp1 Hp2 P1 P2 Ht Ev1 Ev2 Henv [Hl1 Hl2] Hrep Hhy Hm.
  mb Ht as vl s1 H1 H2. mb H2 as vr s2 H2 H3. mb H3 as a s3 H3 H4. mr H4.
  pose proof (hygienic_incl _ _ _ Hhy (incl_appl _ (incl_refl _))) as Hy1. pose proof (hygienic_incl _ _ _ Hhy (incl_app_r _ _)) as Hy2.
  destruct (P1 sg true s vl s1 b v1 H1 Ev1 Henv Hl1 (represents_incl _ _ _ _ _ Hrep (incl_appl _ (incl_refl _))) Hy1) as [l1 a1 b1 -> E1 M1 R1 V1 F1 S1].
  destruct (P2 sg true s1 vr s2 b1 v2 H2 Ev2 Henv Hl2) as [l2 a2 b2 -> E2 M2 R2 V2 F2 _].
  { exact (represents_ext _ _ _ _ _ _ E1 (represents_frame _ _ _ _ _ _ _ (represents_incl _ _ _ _ _ Hrep (incl_app_r _ _)) Hy2 F1)). }
  { exact (hygienic_ext _ _ _ _ E1 Hy2). }
  destruct (peval_typed sg Henv e1 Hp1 v1 Hl1 Ev1) as (T1 & Sl1 & Rg1). destruct (peval_typed sg Henv e2 Hp2 v2 Hl2 Ev2) as (_ & _ & Rg2).
  destruct (Hm a1 a2 s2 b2 a H3) as (mk & Hh & Hev); try assumption.
  - rewrite <- V1. exact (stable_text _ _ _ _ _ _ _ _ _ S1 Hy1 E1 F2).
  - apply (finish_with_helper sg s s2 s' b b2 _ (l1 ++ l2) mk a v (ext_trans _ _ _ _ _ E1 E2)); [lia| |exact (helpers_trans _ _ _ _ _ _ _ _ _ E1 (conj M1 M2) F1 F2)|exact Hh|exact Hev].
    rewrite exec_lines_app, R1. exact R2.
Qed.

Lemma literal_outcome sg s b xs v t : t = text v -> outcome sg s s b xs v [ALit t].
Proof.
  intro Ht. exact (mkOut sg s s b xs v [ALit t] [] (ALit t) b eq_refl (ext_refl s) (le_n _) eq_refl Ht (helpers_refl _ _ _ _) I).
Qed.

Theorem expr_preserve : forall e, pure e = true -> preserved e.
Proof.
  apply pure_ind;
    [ intros b0 | intros z | intros str0 | intros x Hp IHe | intros e1 op e2 Hp1 Hp2 IHe1 IHe2 | intros e1 op e2 Hp1 Hp2 IHe1 IHe2
    | intros e1 op e2 Hp1 Hp2 IHe1 IHe2 | intros v0 | intros x Hp IHe | intros x Hp Hstr IHe | intros x Hp IHe ];
    intros sg used s vs s' b v Ht Hv Henv Hl Hrep Hhy; cbn [t_expr] in Ht; cbn [peval] in Hv; cbn [vars_of] in *.
  - (* bool *) mr Ht. inversion Hv; subst. apply literal_outcome. destruct b0; reflexivity.
  - (* int *) mr Ht. inversion Hv; subst. apply literal_outcome. reflexivity.
  - (* string *) mb Ht as a s1 H1 H2. mr H2. ml H1. unfold bash_conv in H1. cbn [cv_string] in H1. inversion H1; subst.
    inversion Hv; subst. apply literal_outcome. reflexivity.
  - (* unary *)
    mb Ht as vx s1 H1 H2. mb H2 as a s2 H2 H3. mr H3. ml H2. unfold bash_conv in H2. cbn [cv_unary] in H2.
    destruct (peval sg x) as [[| t | |]|] eqn:Ex; try discriminate. inversion Hv; subst.
    destruct (IHe sg true s vx s1 b (VBool t) H1 Ex Henv Hl Hrep Hhy) as [l1 a1 b1 O1 E1 M1 R1 V1 F1 S1]. subst vx.
    cbn [first_value] in H2.
    apply (finish_with_helper sg s s1 s' b b1 _ l1 _ a _ E1 M1 R1 F1 H2).
    cbn [eval_rhs]. rewrite V1, !text_bool, int_of_bool_text. destruct t; reflexivity.
  - (* binary *)
    destruct (peval sg e1) as [v1|] eqn:E1; [|discriminate]. destruct (peval sg e2) as [v2|] eqn:E2; [|destruct v1; discriminate].
    apply (binary_preserved e1 e2 (fun a1 a2 => cv_binary _ _ bash_conv a1 op a2 (type_of e1)) sg s s' b v1 v2 v vs Hp1 Hp2 IHe1 IHe2 Ht E1 E2 Henv Hl Hrep Hhy).
    intros a1 a2 s2 b2 a H V1 V2 T1 Sl1 Rg1 Rg2. unfold bash_conv in H. cbn [cv_binary] in H. rewrite Sl1, <- T1 in H.
    destruct v1 as [x1| |x1|]; destruct v2 as [x2| |x2|]; try discriminate; cbn [vkind] in H.
    + destruct (arith op x1 x2) as [z|] eqn:Ea; [|discriminate]. inversion Hv; subst v. ml H.
      exists (RArith a1 op a2). split; [exact H|].
      cbn [eval_rhs]. rewrite V1, V2, !int_of_dec by assumption. rewrite Ea. reflexivity.
    + destruct op; try discriminate. inversion Hv; subst v. ml H.
      exists (RConcat a1 a2). split; [exact H|]. cbn [eval_rhs]. rewrite V1, V2. reflexivity.
  - (* comparison *)
    destruct (peval sg e1) as [v1|] eqn:E1; [|discriminate]. destruct (peval sg e2) as [v2|] eqn:E2; [|discriminate].
    destruct (compare_vals op v1 v2) as [t|] eqn:Ec; [|discriminate]. inversion Hv; subst v.
    apply (binary_preserved e1 e2 (fun a1 a2 => cv_comparison _ _ bash_conv a1 op a2 (type_of e1)) sg s s' b v1 v2 _ vs Hp1 Hp2 IHe1 IHe2 Ht E1 E2 Henv Hl Hrep Hhy).
    intros a1 a2 s2 b2 a H V1 V2 T1 Sl1 Rg1 Rg2. unfold bash_conv in H. cbn [cv_comparison] in H.
    destruct (cmp_text (type_of e1) op) as [o|] eqn:Eo; [|discriminate]. ml H. unfold cmp_text in Eo. rewrite Sl1, <- T1 in Eo.
    exists (RCompare a1 o a2). split; [exact H|]. cbn [eval_rhs]. rewrite V1, V2, text_bool.
    destruct v1 as [x1|x1|x1|]; destruct v2 as [x2|x2|x2|]; try discriminate; cbn [vkind] in Eo.
    + (* ints *) rewrite !int_of_dec by assumption.
      destruct op; inversion Eo; subst o; cbn [compare_vals] in Ec; inversion Ec; subst t; reflexivity.
    + (* bools *) rewrite !text_bool, !int_of_bool_text.
      destruct op; inversion Eo; subst o; cbn [compare_vals] in Ec; inversion Ec; subst t; destruct x1, x2; reflexivity.
    + (* strings *) destruct op; inversion Eo; subst o; cbn [compare_vals] in Ec; inversion Ec; subst t; reflexivity.
  - (* logical *)
    destruct (peval sg e1) as [[| t1 | |]|] eqn:E1; try discriminate. destruct (peval sg e2) as [[| t2 | |]|] eqn:E2; try discriminate.
    inversion Hv; subst v.
    apply (binary_preserved e1 e2 (fun a1 a2 => lift (cv_logical _ _ bash_conv a1 op a2)) sg s s' b _ _ _ vs Hp1 Hp2 IHe1 IHe2 Ht E1 E2 Henv Hl Hrep Hhy).
    intros a1 a2 s2 b2 a H V1 V2 _ _ _ _. ml H. exists (RLogical a1 op a2). split; [exact H|].
    cbn [eval_rhs]. rewrite V1, V2, !text_bool, !int_of_bool_text. destruct op, t1, t2; reflexivity.
  - (* variable *)
    inversion Ht; subst.
    refine (mkOut sg s' s' b [v0] v _ [] (ARef (user_name s' v0)) b eq_refl (ext_refl s') (le_n _) eq_refl _ (helpers_refl _ _ _ _) _).
    + cbn [atom_text]. apply Hrep; [left; reflexivity|exact Hv].
    + left. exists v0. split; [left; reflexivity|reflexivity].
  - (* group *) apply (IHe sg used s vs s' b v Ht Hv Henv Hl Hrep Hhy).
  - (* len of a string *)
    mb Ht as vx s1 H1 H2. rewrite Hstr in H2. mb H2 as a s2 H2 H3. mr H3. ml H2.
    destruct (peval sg x) as [[| |t|]|] eqn:Ex; try discriminate. destruct (Z.of_nat (length t) <=? int64_max)%Z eqn:El; [|discriminate]. inversion Hv; subst v.
    destruct (IHe sg true s vx s1 b (VStr t) H1 Ex Henv Hl Hrep Hhy) as [l1 a1 b1 O1 E1 M1 R1 V1 F1 S1]. subst vx. cbn [first_value] in H2.
    destruct (string_len_spec _ _ _ _ H2) as (-> & E2 & C2). rewrite (helper_name_ext _ _ _ _ E1) in *.
    set (n := helper_name s (b_var_counter s1)) in *.
    apply (finish_with sg s s1 s' b b1 (sh_set n (dec_Z (Z.of_nat (length t))) (sh_set n (atom_text b1 a1) b1)) _ l1 _ _ E1 M1 R1 F1 E2 C2).
    + cbn [exec_lines exec_line eval_rhs]. rewrite sh_get_set_same, V1. reflexivity.
    + apply sh_get_set_same.
    + intros m Hm. rewrite !sh_get_set_other by exact Hm. reflexivity.
  - (* itoa *)
    mb Ht as vx s1 H1 H2. mr H2.
    destruct (peval sg x) as [[z| | |]|] eqn:Ex; try discriminate. inversion Hv; subst v.
    destruct (IHe sg true s vx s' b (VInt z) H1 Ex Henv Hl Hrep Hhy) as [l1 a1 b1 O1 E1 M1 R1 V1 F1 S1]. subst vx.
    refine (mkOut sg s s' b _ _ _ l1 a1 b1 eq_refl E1 M1 R1 _ F1 S1). rewrite V1. reflexivity.
Qed.
