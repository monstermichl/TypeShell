(* What Bash makes of the text between two double quotes (its expansion rules for that context), and
   what that means for the words the converter emits: variable references deliver the value of the
   variable whatever it contains (a value is never scanned again), text embedded in an eval string is
   scanned exactly once, and string LITERALS are opaque exactly when they avoid the four characters
   Bash interprets inside double quotes.  The function dq_go is a model of Bash; it is validated
   against /bin/bash by the dqwords stream of the C08 check. *)
From Verif Require Import Base.Bytestr Back.BashLines Sem.BashSem.
Open Scope N_scope.

Inductive dmode := DPlain | DName (acc : bytes).     (* acc: the name read so far, reversed *)

(* the characters a backslash escapes inside double quotes: dollar, backquote, double quote, backslash *)
Definition dq_escapable (c : N) : bool := (c =? 36) || (c =? 96) || (c =? 34) || (c =? 92).

(* after an unescaped dollar these start an expansion: a name, or one of the special parameter characters *)
Definition dollar_active (c : N) : bool :=
  is_word c || (c =? 36) || (c =? 40) || (c =? 63) || (c =? 33) || (c =? 35) || (c =? 42) || (c =? 64) || (c =? 45) || (c =? 91).

(* a parameter name: an identifier, or digits only (positional parameter) *)
Definition name_ok (n : bytes) : bool :=
  match n with
  | [] => false
  | c :: _ => negb (is_digit c) || forallb is_digit n
  end.

(* None: outside the modelled fragment (command substitution, other expansion forms, unbalanced quote) *)
Fixpoint dq_go (e : shenv) (t : bytes) (m : dmode) : option bytes :=
  match t with
  | [] => match m with DPlain => Some [] | DName _ => None end
  | c :: r =>
      match m with
      | DName acc =>
          if c =? 125 then (if name_ok (rev acc) then option_map (app (sh_get (rev acc) e)) (dq_go e r DPlain) else None)
          else if is_word c then dq_go e r (DName (c :: acc)) else None
      | DPlain =>
          if c =? 92 then
            match r with
            | c2 :: r2 => if dq_escapable c2 then option_map (cons c2) (dq_go e r2 DPlain)
                          else if c2 =? 10 then dq_go e r2 DPlain
                          else option_map (fun x => 92 :: c2 :: x) (dq_go e r2 DPlain)
            | [] => None
            end
          else if c =? 36 then
            match r with
            | c2 :: r2 => if c2 =? 123 then dq_go e r2 (DName [])
                          else if dollar_active c2 then None
                          else option_map (cons 36) (dq_go e r DPlain)
            | [] => Some [36]
            end
          else if (c =? 96) || (c =? 34) then None
          else option_map (cons c) (dq_go e r DPlain)
      end
  end.

Definition dq (e : shenv) (t : bytes) : option bytes := dq_go e t DPlain.

(* the four characters Bash interprets inside double quotes *)
Definition dq_special (c : N) : bool := (c =? 36) || (c =? 96) || (c =? 34) || (c =? 92).
Definition neutral (t : bytes) : bool := forallb (fun c => negb (dq_special c)) t.

Lemma option_map_app (a b : bytes) (o : option bytes) :
  option_map (app a) (option_map (app b) o) = option_map (app (a ++ b)) o.
Proof. destruct o as [x|]; simpl; [rewrite app_assoc; reflexivity|reflexivity]. Qed.

Lemma option_map_cons_app (c : N) (a : bytes) (o : option bytes) :
  option_map (cons c) (option_map (app a) o) = option_map (app (c :: a)) o.
Proof. destruct o as [x|]; reflexivity. Qed.

Lemma option_map_nil (o : option bytes) : option_map (app []) o = o.
Proof. destruct o; reflexivity. Qed.

(* neutral text stands for itself *)
Lemma dq_neutral e t r : neutral t = true -> dq_go e (t ++ r) DPlain = option_map (app t) (dq_go e r DPlain).
Proof.
  induction t as [|c t IH]; intro H; [simpl; rewrite option_map_nil; reflexivity|].
  simpl in H. apply andb_true_iff in H as [Hc Ht]. unfold dq_special in Hc. cbn [app dq_go].
  destruct (c =? 92), (c =? 36), (c =? 96), (c =? 34); try discriminate Hc. cbn [orb].
  rewrite (IH Ht). apply option_map_cons_app.
Qed.

Lemma class_neq (f : N -> bool) c k : f c = true -> f k = false -> (c =? k) = false.
Proof. intros Hc Hk. destruct (c =? k) eqn:E; [|reflexivity]. apply N.eqb_eq in E. subst. congruence. Qed.

Lemma dq_name_rest e n : forall acc r, forallb is_word n = true ->
  dq_go e (n ++ 125 :: r) (DName acc) =
  if name_ok (rev acc ++ n) then option_map (app (sh_get (rev acc ++ n) e)) (dq_go e r DPlain) else None.
Proof.
  induction n as [|c n IH]; intros acc r H.
  - cbn [app dq_go]. rewrite N.eqb_refl, app_nil_r. reflexivity.
  - simpl in H. apply andb_true_iff in H as [Hc Hn]. cbn [app dq_go].
    rewrite (class_neq is_word c 125 Hc eq_refl), Hc. rewrite (IH (c :: acc) r Hn). cbn [rev]. rewrite <- app_assoc. reflexivity.
Qed.

(* ${n} delivers the value of n, whatever bytes it holds, and the scan continues AFTER the reference *)
Lemma dq_ref e n r : forallb is_word n = true -> name_ok n = true ->
  dq_go e (render_atom (ARef n) ++ r) DPlain = option_map (app (sh_get n e)) (dq_go e r DPlain).
Proof.
  intros Hw Hn. unfold render_atom. change (bs "${") with [36; 123]. change (bs "}") with [125].
  rewrite <- app_assoc. cbn [app]. rewrite <- app_assoc. cbn [app dq_go].
  change (36 =? 92) with false. change (36 =? 36) with true. change (123 =? 123) with true. cbn iota.
  rewrite (dq_name_rest e n [] r Hw). cbn [rev app]. rewrite Hn. reflexivity.
Qed.

Definition atom_ok (a : atom) : bool :=
  match a with
  | ALit t => neutral t
  | ARef n => forallb is_word n && name_ok n
  end.

(* A word made of neutral literal text and variable references: the references are replaced by the
   values, nothing else happens -- for EVERY content of the variables. *)
Theorem dq_atoms e l : forall r, forallb atom_ok l = true ->
  dq_go e (concat (map render_atom l) ++ r) DPlain = option_map (app (concat (map (atom_text e) l))) (dq_go e r DPlain).
Proof.
  induction l as [|a l IH]; intros r H; [simpl; rewrite option_map_nil; reflexivity|].
  simpl in H. apply andb_true_iff in H as [Ha Hl]. cbn [map concat]. rewrite <- app_assoc.
  destruct a as [t|n].
  - cbn [render_atom atom_text]. simpl in Ha. rewrite (dq_neutral e t _ Ha), (IH r Hl). apply option_map_app.
  - simpl in Ha. apply andb_true_iff in Ha as [Hw Hn]. rewrite (dq_ref e n _ Hw Hn), (IH r Hl). cbn [atom_text]. apply option_map_app.
Qed.

Corollary dq_word e l : forallb atom_ok l = true -> dq e (concat (map render_atom l)) = Some (concat (map (atom_text e) l)).
Proof. intro H. unfold dq. rewrite <- (app_nil_r (concat (map render_atom l))). rewrite (dq_atoms e l [] H). simpl. rewrite app_nil_r. reflexivity. Qed.

Definition no_esc (w : bytes) : bool := forallb (fun c => negb ((c =? 92) || (c =? 96) || (c =? 34))) w.

(* deferExpansion: the first scan gives the text back unchanged, references included *)
Lemma dq_defer e w : forall r, no_esc w = true -> dq_go e (defer_exp w ++ r) DPlain = option_map (app w) (dq_go e r DPlain).
Proof.
  induction w as [|c w IH]; intros r H; [simpl; rewrite option_map_nil; reflexivity|].
  simpl in H. apply andb_true_iff in H as [Hc Hw].
  cbn [defer_exp]. destruct (c =? 36) eqn:E.
  - apply N.eqb_eq in E. subst c. cbn [app dq_go]. change (92 =? 92) with true. cbn iota.
    change (dq_escapable 36) with true. cbn iota. rewrite (IH r Hw). apply option_map_cons_app.
  - cbn [app dq_go]. rewrite E. destruct (c =? 92), (c =? 96), (c =? 34); try discriminate Hc.
    cbn [orb]. rewrite (IH r Hw). apply option_map_cons_app.
Qed.

Lemma dq_bq e r : dq_go e (bq ++ r) DPlain = option_map (cons 34) (dq_go e r DPlain).
Proof. reflexivity. Qed.

Lemma forallb_impl {A} (f g : A -> bool) l : (forall a, f a = true -> g a = true) -> forallb f l = true -> forallb g l = true.
Proof. intros H Hf. rewrite forallb_forall in *. intros a Ha. exact (H a (Hf a Ha)). Qed.

Lemma render_atom_no_esc a : atom_ok a = true -> no_esc (render_atom a) = true.
Proof.
  destruct a as [t|n]; cbn [atom_ok render_atom]; intro H.
  - refine (forallb_impl _ _ t _ H). intros c Hc. unfold dq_special in Hc.
    destruct (c =? 36), (c =? 96), (c =? 34), (c =? 92); try discriminate Hc; reflexivity.
  - apply andb_true_iff in H as [Hw _]. unfold no_esc. change (bs "${") with [36; 123]. change (bs "}") with [125].
    assert (forall c, is_word c = true -> negb ((c =? 92) || (c =? 96) || (c =? 34)) = true) as Hc
      by (intros c Hc; rewrite (class_neq is_word c 92 Hc eq_refl), (class_neq is_word c 96 Hc eq_refl), (class_neq is_word c 34 Hc eq_refl); reflexivity).
    rewrite !forallb_app, (forallb_impl _ _ n Hc Hw). reflexivity.
Qed.

(* an escaped quote, the deferred value, an escaped quote -- inside an eval string: after the first scan the eval'ed command contains the
   ORIGINAL quoted word -- the reference, not the value *)
Theorem dq_eval_quoted e a r : atom_ok a = true ->
  dq_go e (bq ++ defer_exp (render_atom a) ++ bq ++ r) DPlain
  = option_map (app (q ++ render_atom a ++ q)) (dq_go e r DPlain).
Proof.
  intro H. rewrite dq_bq. rewrite (dq_defer e _ _ (render_atom_no_esc a H)). rewrite dq_bq.
  destruct (dq_go e r DPlain) as [x|]; [|reflexivity]. simpl. unfold q. rewrite <- app_assoc. reflexivity.
Qed.

(* and the second scan (by eval) of that quoted word expands it once *)
Theorem eval_scans_once e a : atom_ok a = true -> dq e (render_atom a) = Some (atom_text e a).
Proof. intro H. generalize (dq_word e [a]). cbn [map concat]. rewrite !app_nil_r. intro G. apply G. simpl. rewrite H. reflexivity. Qed.

(* non-vacuity: a value full of special characters comes out of a reference unchanged *)
Example dq_sample :
  dq [(bs "v", bs "q""d$HOME`x`\n*  -e $(touch X)")] (bs "<${v}>") = Some (bs "<q""d$HOME`x`\n*  -e $(touch X)>").
Proof. vm_compute. reflexivity. Qed.
