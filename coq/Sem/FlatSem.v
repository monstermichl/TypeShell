(* The shell model for flat line lists with conditionals: assignments and print as in Sem/StmtPreserve.v, plus
   if / elif / else / fi as Bash executes them on the emitted one-construct-per-line scripts (the condition line is
   "[ c -eq 1 ]", a false condition moves on to the next elif / else / fi of the same construct, the end of a taken
   branch moves behind the matching fi).  Loops are not part of this model. *)
From Verif Require Import Base.Bytestr Back.BashLines Sem.BashSem Sem.StmtPreserve.
From Coq Require Import ZArith.
Open Scope N_scope.

Definition cond_true (e : shenv) (c : atom) : option bool := option_map (Z.eqb 1) (int_of_text (atom_text e c)).

Definition is_if (w : bytes) : bool := beq w (bs "if").

(* behind the matching fi of the construct we are in (d: constructs opened since) *)
Fixpoint skip_fi (ls : list line) (d : nat) : option (list line) :=
  match ls with
  | [] => None
  | LIf w _ :: r => if is_if w then skip_fi r (S d) else skip_fi r d
  | LIncrGuard _ :: r => skip_fi r (S d)
  | LFi :: r => match d with O => Some r | S d' => skip_fi r d' end
  | _ :: r => skip_fi r d
  end.

(* at the next elif / else / fi of the construct we are in *)
Fixpoint skip_branch (ls : list line) (d : nat) : option (list line) :=
  match ls with
  | [] => None
  | LIf w c :: r => if is_if w then skip_branch r (S d) else match d with O => Some (LIf w c :: r) | S _ => skip_branch r d end
  | LIncrGuard _ :: r => skip_branch r (S d)
  | LElse :: r => match d with O => Some (LElse :: r) | S _ => skip_branch r d end
  | LFi :: r => match d with O => Some (LFi :: r) | S d' => skip_branch r d' end
  | _ :: r => skip_branch r d
  end.

(* seek = true: a condition was false and we stand at the next elif / else / fi of the construct *)
Fixpoint run (fuel : nat) (seek : bool) (e : shenv) (ls : list line) : option (shenv * bytes) :=
  match fuel with
  | O => None
  | S f =>
      match ls with
      | [] => if seek then None else Some (e, [])
      | l :: r =>
          if seek then
            match l with
            | LIf w c =>
                match cond_true e c with
                | Some true => run f false e r
                | Some false => match skip_branch r 0 with Some r' => run f true e r' | None => None end
                | None => None
                end
            | LElse => run f false e r
            | LFi => run f false e r
            | _ => None
            end
          else
            match l with
            | LIf w c =>
                if is_if w then
                  match cond_true e c with
                  | Some true => run f false e r
                  | Some false => match skip_branch r 0 with Some r' => run f true e r' | None => None end
                  | None => None
                  end
                else match skip_fi r 0 with Some r' => run f false e r' | None => None end
            | LElse => match skip_fi r 0 with Some r' => run f false e r' | None => None end
            | LFi => run f false e r
            | LNop => run f false e r
            | _ => match exec_out e l with
                   | Some (e1, o1) => match run f false e1 r with Some (e2, o2) => Some (e2, o1 ++ o2) | None => None end
                   | None => None
                   end
            end
      end
  end.

Lemma run_mono : forall f seek e ls res, run f seek e ls = Some res -> forall f', (f <= f')%nat -> run f' seek e ls = Some res.
Proof.
  induction f as [|f IH]; intros seek e ls res H f' Hle; [discriminate|].
  destruct f' as [|f']; [lia|].
  assert (forall sk e0 l0 r0, run f sk e0 l0 = Some r0 -> run f' sk e0 l0 = Some r0) as IH'
    by (intros sk e0 l0 r0 H0; apply (IH sk e0 l0 r0 H0); lia).
  cbn [run] in *. destruct ls as [|l r]; [exact H|].
  destruct seek.
  - destruct l; try discriminate; auto.
    destruct (cond_true e c) as [[|]|]; try discriminate; auto. destruct (skip_branch r 0); [auto|discriminate].
  - destruct l;
      try (destruct (exec_out e _) as [[e1 o1]|]; [|discriminate];
           destruct (run f false e1 r) as [[e2 o2]|] eqn:E; [|discriminate]; rewrite (IH' _ _ _ _ E); exact H);
      auto.
    + destruct (is_if word).
      * destruct (cond_true e c) as [[|]|]; try discriminate; auto. destruct (skip_branch r 0); [auto|discriminate].
      * destruct (skip_fi r 0); [auto|discriminate].
    + destruct (skip_fi r 0); [auto|discriminate].
Qed.

(* a test met while running (if) or while seeking (elif) *)
Lemma run_test seek w v t e r f :
  seek || is_if w = true -> cond_true e v = Some t ->
  run (S f) seek e (LIf w v :: r) =
  if t then run f false e r else match skip_branch r 0 with Some r' => run f true e r' | None => None end.
Proof. intros Hw Hc. cbn [run]. destruct seek; [|cbn [orb] in Hw; rewrite Hw]; rewrite Hc; destruct t; reflexivity. Qed.

(* the result of running the rest, in continuation-passing style *)
Definition runs (e : shenv) (ls : list line) (res : shenv * bytes) : Prop := exists f, run f false e ls = Some res.

Definition prepend (o : bytes) (res : shenv * bytes) : shenv * bytes := (fst res, o ++ snd res).

Lemma prepend_nil res : prepend [] res = res.
Proof. destruct res; reflexivity. Qed.
Lemma prepend_app a b res : prepend a (prepend b res) = prepend (a ++ b) res.
Proof. destruct res; unfold prepend; cbn [fst snd]. rewrite app_assoc. reflexivity. Qed.
Lemma prepend_end o e : prepend o (e, []) = (e, o).
Proof. unfold prepend. cbn [fst snd]. rewrite app_nil_r. reflexivity. Qed.

(* straight lines (assignments, print) in front of anything *)
Lemma runs_straight P : forall e e1 o1 rest res,
  exec_outs e P = Some (e1, o1) -> runs e1 rest res -> runs e (P ++ rest) (prepend o1 res).
Proof.
  induction P as [|l r IH]; intros e e1 o1 rest res H Hr.
  - cbn [exec_outs] in H. inversion H; subst. destruct res as [e2 o2]. exact Hr.
  - cbn [exec_outs] in H. destruct (exec_out e l) as [[ea oa]|] eqn:El; [|discriminate].
    destruct (exec_outs ea r) as [[eb ob]|] eqn:Er; [|discriminate]. inversion H; subst; clear H.
    destruct (IH ea e1 ob rest res Er Hr) as [f Hf]. exists (S f). cbn [app run].
    destruct l; try (cbn [exec_out exec_line] in El; discriminate);
      rewrite El, Hf; unfold prepend; cbn [fst snd]; rewrite app_assoc; reflexivity.
Qed.

(* blocks the skipping functions jump over as a whole *)
Definition closed (X : list line) : Prop :=
  (forall rest d, skip_branch (X ++ rest) d = skip_branch rest d) /\ (forall rest d, skip_fi (X ++ rest) d = skip_fi rest d).

Lemma closed_nil : closed [].
Proof. split; intros; reflexivity. Qed.

Lemma closed_app X Y : closed X -> closed Y -> closed (X ++ Y).
Proof. intros [A1 A2] [B1 B2]. split; intros rest d; rewrite <- app_assoc; [rewrite A1; apply B1|rewrite A2; apply B2]. Qed.

Definition plain_line (l : line) : bool := match l with LIf _ _ | LIncrGuard _ | LElse | LFi => false | _ => true end.

Lemma closed_plain P : forallb plain_line P = true -> closed P.
Proof.
  induction P as [|l r IH]; intro H; [apply closed_nil|]. simpl in H. apply andb_true_iff in H as [Hl Hr].
  destruct (IH Hr) as [A B]. split; intros rest d; cbn [app]; destruct l; try discriminate; cbn [skip_branch skip_fi]; first [apply A|apply B].
Qed.

(* a complete construct: if c, a closed body, a chain of elif parts, an optional else part, fi *)
Lemma closed_if c B T : closed B -> (forall rest d, skip_branch (T ++ rest) (S d) = skip_branch rest d) ->
  (forall rest d, skip_fi (T ++ rest) (S d) = skip_fi rest d) -> closed ([LIf (bs "if") c] ++ B ++ T).
Proof.
  intros [B1 B2] T1 T2. split; intros rest d; cbn [app skip_branch skip_fi]; change (is_if (bs "if")) with true; cbn iota;
    rewrite <- app_assoc; [rewrite B1; apply T1|rewrite B2; apply T2].
Qed.
