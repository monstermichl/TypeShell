(* Loops and calls of the Bash target.  For programs built from assignments (of one value, of several at once, of the
   results of a call), prints, if / else-if / else, three-clause and condition-only for loops, break and continue, call
   statements and return, at any nesting depth: whenever the source program terminates, the emitted lines, run by the
   flat shell model with loops (Sem/FlatLoop.v), print what the source prints and leave the shell environment
   representing the final source environment.  What a call does is a parameter on both sides (Section WithCalls: an
   oracle for the machine, a relation for the source, the hypothesis that the one refines the other); Sem/CallPreserve.v
   puts the functions of the script in. *)
From Verif Require Import Base.Bytestr Base.DecFacts Front.Ast Back.BashLines Back.Transpile Back.BashConv
  Back.BashSyntax Back.BashFacts Sem.Src Sem.BashSem Sem.ExprPreserve Sem.Words Sem.StmtPreserve Sem.FlatSem
  Sem.IfPreserve Sem.FlatLoop Back.TraverseInv Back.NameFacts.
From Coq Require Import ZArith.
Open Scope N_scope.

(* what stays fixed while the lines of a block with loops are appended: ext of Back/BashFacts.v without the start code
   and the stack of open loops (a loop pushes and pops its number), with the loop counter, which only grows *)
Record cext (s s' : bstate) (ls : list line) : Prop := mkCext {
  cx_code : b_code s' = b_code s ++ ls;
  cx_funcs : b_funcs s' = b_funcs s;
  cx_fcnt : b_func_counter s' = b_func_counter s;
  cx_mono : (b_for_counter s <= b_for_counter s')%nat
}.

Lemma cext_refl s : cext s s [].
Proof. constructor; [rewrite app_nil_r; reflexivity|reflexivity|reflexivity|apply le_n]. Qed.
Lemma cext_trans a b c x y : cext a b x -> cext b c y -> cext a c (x ++ y).
Proof. intros [A1 A2 A3 A4] [B1 B2 B3 B4]. constructor; [rewrite B1, A1, app_assoc; reflexivity|congruence|congruence|lia]. Qed.
Lemma cext_of_ext s s' ls : ext s s' ls -> (b_for_counter s <= b_for_counter s')%nat -> cext s s' ls.
Proof. intros [A B C D E] M. constructor; assumption. Qed.
Lemma cext_line l s : cext s (add_line l s) [l].
Proof. apply cext_of_ext; [apply ext_add_line|apply le_n]. Qed.
Lemma cext_lines2 a b s : cext s (add_line b (add_line a s)) [a; b].
Proof. exact (cext_trans _ _ _ [a] [b] (cext_line a s) (cext_line b (add_line a s))). Qed.
Lemma cext_same s s' : b_code s' = b_code s -> b_funcs s' = b_funcs s -> b_func_counter s' = b_func_counter s ->
  (b_for_counter s <= b_for_counter s')%nat -> cext s s' [].
Proof. intros A B C D. constructor; [rewrite app_nil_r; exact A|exact B|exact C|exact D]. Qed.

Lemma user_name_cext s s' ls x : cext s s' ls -> user_name s' x = user_name s x.
Proof. intros E. unfold user_name, var_name. rewrite (cx_funcs _ _ _ E), (cx_fcnt _ _ _ E). reflexivity. Qed.
Lemma helper_name_cext s s' ls k : cext s s' ls -> helper_name s' k = helper_name s k.
Proof. intros E. unfold helper_name, var_name. rewrite (cx_funcs _ _ _ E), (cx_fcnt _ _ _ E). reflexivity. Qed.

Lemma ctx_cext XS sg b s s' ls : cext s s' ls -> ctx_ok XS sg b s -> ctx_ok XS sg b s'.
Proof. intro E. exact (ctx_same_names XS sg b s s' (fun x => user_name_cext _ _ _ x E) (fun k => helper_name_cext _ _ _ k E)). Qed.

Lemma ctx_cext_rev XS sg b s s' ls : cext s s' ls -> ctx_ok XS sg b s' -> ctx_ok XS sg b s.
Proof. intro E. exact (ctx_same_names XS sg b s' s (fun x => eq_sym (user_name_cext _ _ _ x E)) (fun k => eq_sym (helper_name_cext _ _ _ k E))). Qed.

Lemma code_same_cext s s' X Y : b_code s' = b_code s ++ X -> cext s s' Y -> X = Y.
Proof. intros H E. rewrite (cx_code _ _ _ E) in H. apply app_inv_head in H. symmetry. exact H. Qed.

Fixpoint rv_lines (vs : list atom) (i : nat) : list line :=
  match vs with [] => [] | v :: r => LAssign (rv_name i) (RAtom v) :: rv_lines r (S i) end.

(* the state after the assignments to the return registers *)
Definition rv_fold (vs : list atom) (s : bstate) (i : nat) : bstate :=
  fst (fold_left (fun (acc : bstate * nat) v => let '(st, i) := acc in (add_line (LAssign (var_name st (rv_name i) true) (RAtom v)) st, S i)) vs (s, i)).

Lemma rv_fold_cext : forall vs s i, cext s (rv_fold vs s i) (rv_lines vs i) /\ b_fors (rv_fold vs s i) = b_fors s.
Proof.
  induction vs as [|v r IH]; intros s i; [split; [apply cext_refl|reflexivity]|].
  unfold rv_fold. cbn [fold_left rv_lines]. rewrite var_name_global.
  destruct (IH (add_line (LAssign (rv_name i) (RAtom v)) s) (S i)) as [E F].
  split; [exact (cext_trans _ _ _ [_] _ (cext_line _ s) E)|exact F].
Qed.

(* the copies of the return registers behind a call line *)
Fixpoint copy_lines (st : bstate) (k i n : nat) : list line :=
  match n with O => [] | S m => LAssign (helper_name st k) (RAtom (ARef (rv_name i))) :: copy_lines st (S k) (S i) m end.
Fixpoint refs (name : nat -> bytes) (k n : nat) : list atom :=
  match n with O => [] | S m => ARef (name k) :: refs name (S k) m end.

Lemma helper_assign_forc mk s a s' : helper_assign mk s = (a, s') -> b_for_counter s' = b_for_counter s.
Proof. unfold helper_assign, next_helper. intro H. inversion H; subst. reflexivity. Qed.

(* the helpers are named as at st0 throughout: the states in between give the same names *)
Lemma copies_fold {A} st0 : forall (rets : list A) vs0 st i, (forall k, helper_name st k = helper_name st0 k) ->
  exists s2 j,
    fold_left (fun (acc : list atom * bstate * nat) (_ : A) =>
                 let '(vs, st, i) := acc in let '(h, st') := helper_assign (RAtom (ARef (rv_name i))) st in (vs ++ [h], st', S i)) rets (vs0, st, i)
    = (vs0 ++ refs (helper_name st0) (b_var_counter st) (length rets), s2, j) /\
    cext st s2 (copy_lines st0 (b_var_counter st) i (length rets)).
Proof.
  induction rets as [|r rr IH]; intros vs0 st i Hn.
  - exists st, i. cbn [fold_left length refs copy_lines]. rewrite app_nil_r. split; [reflexivity|apply cext_refl].
  - cbn [fold_left]. destruct (helper_assign (RAtom (ARef (rv_name i))) st) as [h st'] eqn:EH.
    destruct (helper_assign_spec _ _ _ _ EH) as (-> & Ex & Hc). rewrite Hn in *.
    destruct (IH (vs0 ++ [ARef (helper_name st0 (b_var_counter st))]) st' (S i)) as (s2 & j & Hf & E2).
    { intro k. rewrite (helper_name_ext _ _ _ k Ex). apply Hn. }
    exists s2, j. rewrite Hf, Hc, <- app_assoc. split; [reflexivity|]. rewrite Hc in E2.
    refine (cext_trans _ _ _ [_] _ (cext_of_ext _ _ _ Ex _) E2). rewrite (helper_assign_forc _ _ _ _ EH). apply le_n.
Qed.

(* the loop counter never runs backwards (all statements, by the generic traversal theorem) *)
Definition fc_ge (k : nat) (s : bstate) : Prop := (k <= b_for_counter s)%nat.

Lemma fc_fold_params k (ps : list bytes) : forall (acc : bstate * nat), fc_ge k (fst acc) ->
  fc_ge k (fst (fold_left (fun (acc : bstate * nat) p => let '(st, i) := acc in (add_line (LLocalParam (var_name st p false) i) st, S i)) ps acc)).
Proof. induction ps as [|p r IH]; intros [st i] H; [exact H|]. cbn [fold_left]. apply IH. exact H. Qed.

Lemma fc_stmt k st : forall s u s', fc_ge k s -> t_stmt bash_conv st s = TOk u s' -> fc_ge k s'.
Proof.
  intros s u s' I0 H.
  refine (t_stmt_preserves bash_conv (fc_ge k) (fun _ => true) _ _ _ _ _ _ _ _ _ _ _ _ _ _ _ _ _ _ _ _ _ _ _ _ _ _ _ _ _ _ _ _ _ _ _ _ st (names_ok_true st) s u s' I0 H);
    clear; unfold fc_ge; cbn [bash_conv cv_string cv_var_definition cv_slice_assignment cv_func_start cv_func_end cv_return cv_if_start cv_if_end
                cv_elseif_start cv_else_start cv_for_start cv_for_incr_start cv_for_incr_end cv_for_condition cv_for_end cv_break cv_continue
                cv_print cv_panic cv_write_file cv_nop cv_unary cv_binary cv_comparison cv_logical cv_slice_instantiation cv_slice_evaluation
                cv_slice_len cv_string_subscript cv_string_len cv_func_call cv_app_call cv_input cv_copy cv_exists cv_read_file].
  (* the operations that only append lines or set flags: first the total ones, then those that return a result, whose
     equation is inverted first; the operations named below are left *)
  all: try (intros; cbn [snd add_line set_flags b_for_counter]; assumption).
  all: try (intros; match goal with H : _ = TOk _ _ |- _ => inversion H; subst; cbn [add_line b_for_counter]; assumption end).
  - (* func_start *) intros n ps rs s _ I. apply (fc_fold_params _ ps (_, 1%nat)). exact I.
  - (* func_end *) intros s u s' I H. destruct (b_funcs s); [discriminate|]. inversion H; subst. exact I.
  - (* return *) intros vs s u s' I H. inversion H; subst. cbn [add_line b_for_counter]. exact (Nat.le_trans _ _ _ I (cx_mono _ _ _ (proj1 (rv_fold_cext vs s 0)))).
  - (* for_start *) intros s I. cbn [add_line b_for_counter]. lia.
  - (* for_incr_start *) intros s u s' I H. destruct (current_flag s); [|discriminate]. inversion H; subst. exact I.
  - (* for_incr_end *) intros s u s' I H. destruct (current_flag s); [|discriminate]. inversion H; subst. exact I.
  - (* for_end *) intros s u s' I H. destruct (b_fors s); [discriminate|]. inversion H; subst. exact I.
  - (* binary *) intros l op r t s v s' I H. destruct (is_slice t); [discriminate|]. destruct (dt t); try discriminate.
    + destruct (helper_assign _ s) as [h s1] eqn:E. inversion H; subst. rewrite (helper_assign_forc _ _ _ _ E). exact I.
    + destruct op; try discriminate. destruct (helper_assign _ s) as [h s1] eqn:E. inversion H; subst. rewrite (helper_assign_forc _ _ _ _ E). exact I.
  - (* comparison *) intros l op r t s v s' I H. destruct (cmp_text t op) as [o|]; [|discriminate].
    destruct (helper_assign _ s) as [h s1] eqn:E. inversion H; subst. rewrite (helper_assign_forc _ _ _ _ E). exact I.
  - (* slice_instantiation *) intros vs s I. destruct (helper_assign RNewSlice (add_line LDvcIncr s)) as [h s1] eqn:E. cbn [snd].
    destruct vs; cbn [add_line b_for_counter]; rewrite (helper_assign_forc _ _ _ _ E); exact I.
  - (* func_call *) intros n vs rs u s I. destruct u; [|exact I].
    destruct (copies_fold (add_line (LCall n vs) s) rs [] _ 0%nat (fun j => eq_refl)) as (s2 & j & -> & E).
    exact (Nat.le_trans _ _ _ I (cx_mono _ _ _ E)).
  - (* app_call *) intros cs u s I. destruct u; exact I.
Qed.

Theorem for_counter_mono st s u s' : t_stmt bash_conv st s = TOk u s' -> (b_for_counter s <= b_for_counter s')%nat.
Proof. intro H. exact (fc_stmt (b_for_counter s) st s u s' (le_n _) H). Qed.

(* t_stmt_preserves is stated for statements and covers their expressions on the way: the expression case is read off
   fc_stmt at a statement that consists of the expression (SPanic e uses its value, SExpr e does not) *)
Lemma expr_mono_any e used s vs s' : t_expr bash_conv e used s = TOk vs s' -> (b_for_counter s <= b_for_counter s')%nat.
Proof.
  intro H. destruct used.
  - assert (t_stmt bash_conv (SPanic e) s = TOk tt (cv_panic bstate atom bash_conv (first_value bash_conv vs) s')) as Hp
      by (cbn [t_stmt]; unfold mbind; rewrite H; reflexivity).
    pose proof (for_counter_mono _ _ _ _ Hp) as M. rewrite bash_panic in M. exact M.
  - assert (t_stmt bash_conv (SExpr e) s = TOk tt s') as Hp by (cbn [t_stmt]; unfold mbind; rewrite H; reflexivity).
    exact (for_counter_mono _ _ _ _ Hp).
Qed.

(* blocks: jumped over as a whole by all three skipping functions, with no line that opens or closes a function *)
Definition dclosed (X : list line) : Prop := forall rest d, skip_done (X ++ rest) d = skip_done rest d.
Definition inner (l : line) : bool := match l with LFuncOpen _ | LClose => false | _ => true end.
Record cl3 (X : list line) : Prop := mkCl3 { c3_if : closed X; c3_done : dclosed X; c3_inner : forallb inner X = true }.

Lemma dclosed_nil : dclosed []. Proof. intros rest d. reflexivity. Qed.
Lemma dclosed_app X Y : dclosed X -> dclosed Y -> dclosed (X ++ Y).
Proof. intros A B rest d. rewrite <- app_assoc, A. apply B. Qed.
Lemma cl3_nil : cl3 []. Proof. constructor; [apply closed_nil|apply dclosed_nil|reflexivity]. Qed.
Lemma cl3_app X Y : cl3 X -> cl3 Y -> cl3 (X ++ Y).
Proof. intros [A1 A2 A3] [B1 B2 B3]. constructor; [apply closed_app; assumption|apply dclosed_app; assumption|rewrite forallb_app, A3, B3; reflexivity]. Qed.

Lemma cl3_simple P : forallb is_simple P = true -> cl3 P.
Proof.
  intro H. constructor; [exact (closed_plain P (simple_plain P H))| |].
  - induction P as [|l r IH]; [apply dclosed_nil|]. cbn [forallb] in H. apply andb_true_iff in H as [Hl Hr].
    intros rest d. cbn [app]. destruct l; try discriminate; cbn [skip_done]; apply (IH Hr).
  - induction P as [|l r IH]; [reflexivity|]. cbn [forallb] in *. apply andb_true_iff in H as [Hl Hr].
    rewrite (IH Hr). destruct l; try discriminate; reflexivity.
Qed.

Lemma inner_no_open X n : forallb inner X = true -> ~ In (LFuncOpen n) X.
Proof. intros H Hin. rewrite forallb_forall in H. discriminate (H _ Hin). Qed.

Lemma inner_skip_close : forall X rest, forallb inner X = true -> skip_close (X ++ LClose :: rest) = Some rest.
Proof.
  induction X as [|l r IH]; intros rest H; [reflexivity|]. cbn [forallb] in H. apply andb_true_iff in H as [Hl Hr].
  cbn [app]. destruct l; try discriminate; cbn [skip_close]; exact (IH rest Hr).
Qed.

Definition emits3 (s s' : bstate) : Prop := exists X, cext s s' X /\ cl3 X /\ b_fors s' = b_fors s.

Lemma e3_refl s : emits3 s s. Proof. exists []. split; [apply cext_refl|]. split; [apply cl3_nil|reflexivity]. Qed.
Lemma e3_trans a b c : emits3 a b -> emits3 b c -> emits3 a c.
Proof. intros (X & E1 & C1 & F1) (Y & E2 & C2 & F2). exists (X ++ Y). split; [eapply cext_trans; eassumption|]. split; [apply cl3_app; assumption|congruence]. Qed.
Lemma e3_line l s : is_simple l = true -> emits3 s (add_line l s).
Proof. intro H. exists [l]. split; [apply cext_line|]. split; [apply cl3_simple; cbn [forallb]; rewrite H; reflexivity|reflexivity]. Qed.
Lemma cext_of_e3 s s' ls : ext s s' ls -> emits3 s s' -> cext s s' ls.
Proof. intros E (X & EX & _). exact (cext_of_ext _ _ _ E (cx_mono _ _ _ EX)). Qed.

Lemma e3_expr e used s vs s' : t_expr bash_conv e used s = TOk vs s' -> emits3 s s'.
Proof.
  intro H. destruct (t_expr_ok e used s vs s' H) as (ls & E & Hs & _). exists ls. split; [apply cext_of_ext; [exact E|exact (expr_mono_any _ _ _ _ _ H)]|].
  split; [exact (cl3_simple ls Hs)|exact (x_fors _ _ _ E)].
Qed.

Definition E3 {A} (m : M (St:=bstate) A) : Prop := forall s a s', m s = TOk a s' -> emits3 s s'.

Lemma E3_ret {A} (a : A) : E3 (mret a).
Proof. intros s a0 s' H. mr H. apply e3_refl. Qed.
Lemma E3_bind {A B} (m : M A) (f : A -> M B) : E3 m -> (forall a, E3 (f a)) -> E3 (mbind m f).
Proof. intros Hm Hf s b s' H. mb H as a s1 H1 H2. exact (e3_trans _ _ _ (Hm _ _ _ H1) (Hf a _ _ _ H2)). Qed.
Lemma E3_expr e used : E3 (t_expr bash_conv e used).
Proof. intros s vs s'. apply e3_expr. Qed.
Lemma E3_vardef n v g : E3 (upd (cv_var_definition bstate atom bash_conv n v g)).
Proof. intros s u s' H. mu H. subst s'. rewrite bash_var_definition. apply e3_line. reflexivity. Qed.

Lemma pv_e3 : forall es, E3 (pv_fix es).
Proof.
  induction es as [|e r IH]; cbn [pv_fix]; [apply E3_ret|].
  apply E3_bind; [apply E3_expr|intro ve]. apply E3_bind; [exact IH|intro vr; apply E3_ret].
Qed.

Lemma print_e3 es : E3 (t_stmt bash_conv (SPrint es)).
Proof.
  cbn [t_stmt]. apply E3_bind; [exact (pv_e3 es)|]. intros vs s u s' H. mu H. subst s'. rewrite bash_print. apply e3_line. reflexivity.
Qed.

Lemma store_e3 : forall vars vals, E3 (store_values bash_conv vars vals).
Proof.
  induction vars as [|v r IH]; intro vals; cbn [store_values]; [apply E3_ret|].
  destruct vals as [|x xr]; [intros s u s' H; discriminate|]. apply E3_bind; [apply E3_vardef|intros _; apply IH].
Qed.

Lemma evals_e3 many : forall es i, E3 (eval_values bash_conv many es i).
Proof.
  induction es as [|e r IH]; intro i; cbn [eval_values]; [apply E3_ret|].
  apply E3_bind; [apply E3_expr|intro ve]. apply E3_bind; [|intro v; apply E3_bind; [apply IH|intro vr; apply E3_ret]].
  destruct many; [|apply E3_ret]. apply E3_bind; [apply E3_vardef|]. intros _ s a s' H. inversion H; subst. apply e3_refl.
Qed.

Lemma assign_any_e3 vars es : E3 (t_stmt bash_conv (SAssign vars es)).
Proof.
  cbn [t_stmt]. unfold assign_values. destruct (length es <? length vars)%nat; [intros s u s' H; discriminate|].
  apply E3_bind; [apply evals_e3|intro vs; apply store_e3].
Qed.

Lemma assign_call_e3 vars call : E3 (t_stmt bash_conv (SAssignCall vars call)).
Proof.
  cbn [t_stmt]. unfold assign_call. apply E3_bind; [apply E3_expr|intro vs].
  destruct (Nat.eqb (length vs) (length vars)); [apply store_e3|intros s u s' H; discriminate].
Qed.

Lemma conds_e3 elifs : forall s cs s', conds_fix elifs s = TOk cs s' -> emits3 s s'.
Proof.
  induction elifs as [|[c b] r IH]; intros s cs s' H.
  - mr H. apply e3_refl.
  - cbn [conds_fix] in H. mb H as vc s1 H1 H2. mb H2 as vr s2 H2 H3. mr H3. eapply e3_trans; [exact (e3_expr _ _ _ _ _ H1)|exact (IH _ _ _ H2)].
Qed.

(* the tail of a conditional: as in Sem/IfPreserve.v, and transparent for the loop skip *)
Record tail3 (T : list line) : Prop := mkTail3 { t3_if : tail_ok T; t3_done : dclosed T; t3_inner : forallb inner T = true }.

Lemma tail3_fi : tail3 [LFi].
Proof. constructor; [apply tail_fi|intros rest d; reflexivity|reflexivity]. Qed.
Lemma tail3_else B : cl3 B -> tail3 ([LElse] ++ B ++ [LFi]).
Proof.
  intros [C D N]. constructor; [apply tail_else; exact C| |cbn [app forallb inner]; rewrite forallb_app, N; reflexivity].
  intros rest d. cbn [app skip_done]. rewrite <- app_assoc, D. reflexivity.
Qed.
Lemma tail3_elif c B T : cl3 B -> tail3 T -> tail3 ([LIf (bs "elif") c] ++ B ++ T).
Proof.
  intros [C D N] [TO TD TN]. constructor; [apply tail_elif; assumption| |cbn [app forallb inner]; rewrite forallb_app, N, TN; reflexivity].
  intros rest d. cbn [app skip_done]. rewrite <- app_assoc, D. apply TD.
Qed.
Lemma cl3_if c B T : cl3 B -> tail3 T -> cl3 ([LIf (bs "if") c] ++ B ++ T).
Proof.
  intros [C D N] [[T1 T2 _ _ _] TD TN]. constructor; [apply closed_if; assumption| |cbn [app forallb inner]; rewrite forallb_app, N, TN; reflexivity].
  intros rest d. cbn [app skip_done]. rewrite <- app_assoc, D. apply TD.
Qed.

(* a whole loop: flag=, while true; do, the body, done *)
Lemma cl3_loop f B : cl3 B -> cl3 ([LForInit f; LWhile] ++ B ++ [LDone]).
Proof.
  intros [[C1 C2] D N]. constructor; [split| |cbn [app forallb inner]; rewrite forallb_app, N; reflexivity];
    intros rest d; cbn [app skip_branch skip_fi skip_done]; rewrite <- app_assoc; rewrite ?C1, ?C2, ?D; reflexivity.
Qed.

(* the increment part of a three-clause loop *)
Lemma cl3_incr f f2 B : cl3 B -> cl3 ([LIncrGuard f] ++ B ++ [LFi; LFlagSet f2]).
Proof.
  intros [[C1 C2] D N]. constructor; [split| |cbn [app forallb inner]; rewrite forallb_app, N; reflexivity];
    intros rest d; cbn [app skip_branch skip_fi skip_done]; rewrite <- app_assoc; rewrite ?C1, ?C2, ?D; reflexivity.
Qed.

Definition simple_stmt (st : stmt) : bool :=
  match st with
  | SAssign [_] [e] => pure e
  | SVarDef [_] [e] => pure e
  | _ => false
  end.
Definition simple_opt (o : option stmt) : bool := match o with None => true | Some st => simple_stmt st end.

Fixpoint frag2 (st : stmt) : bool :=
  let all := fix all (l : list stmt) : bool := match l with [] => true | x :: r => frag2 x && all r end in
  match st with
  | SAssign [_] [e] => pure e
  | SVarDef [_] [e] => pure e
  | SPrint es => forallb pure es
  | SBreak => true
  | SContinue => true
  | SIf ((c0, b0) :: elifs) els =>
      pure c0 && all b0
      && (fix ab (l : list (expr * list stmt)) : bool := match l with [] => true | cb :: r => pure (fst cb) && all (snd cb) && ab r end) elifs
      && all els
  | SFor init cond incr body => simple_opt init && pure cond && simple_opt incr && all body
  | SAssign (_ :: _ :: xr) es => forallb pure es && Nat.eqb (length es) (S (S (length xr)))     (* x, y = e1, e2 *)
  | SVarDef (_ :: _ :: xr) es => forallb pure es && Nat.eqb (length es) (S (S (length xr)))    (* x, y := e1, e2 *)
  | SAssignCall _ (ECall _ _ args) => forallb pure args          (* x, y = f(args) *)
  | SVarDefCall _ (ECall _ _ args) => forallb pure args          (* x, y := f(args) *)
  | SExpr (ECall _ _ args) => forallb pure args                  (* f(args) *)
  | SReturn es => forallb pure es                                (* return e1, e2 *)
  | _ => false
  end.
Fixpoint frag2_all (l : list stmt) : bool := match l with [] => true | x :: r => frag2 x && frag2_all r end.
Fixpoint frag2_branches (l : list (expr * list stmt)) : bool :=
  match l with [] => true | cb :: r => pure (fst cb) && frag2_all (snd cb) && frag2_branches r end.

Lemma frag2_all_eq l : (fix all (l : list stmt) : bool := match l with [] => true | x :: r => frag2 x && all r end) l = frag2_all l.
Proof. induction l as [|x r IH]; [reflexivity|]. cbn [frag2_all]. rewrite <- IH. reflexivity. Qed.
Lemma frag2_branches_eq l :
  (fix ab (l : list (expr * list stmt)) : bool :=
     match l with [] => true | cb :: r => pure (fst cb) && (fix all (l : list stmt) : bool := match l with [] => true | x :: r => frag2 x && all r end) (snd cb) && ab r end) l
  = frag2_branches l.
Proof. induction l as [|cb r IH]; [reflexivity|]. cbn [frag2_branches]. rewrite <- IH, frag2_all_eq. reflexivity. Qed.
Lemma frag2_if c0 b0 elifs els :
  frag2 (SIf ((c0, b0) :: elifs) els) = true -> pure c0 = true /\ frag2_all b0 = true /\ frag2_branches elifs = true /\ frag2_all els = true.
Proof. cbn [frag2]. rewrite !frag2_all_eq, frag2_branches_eq, !andb_true_iff. tauto. Qed.
Lemma frag2_branches_cons c b r : frag2_branches ((c, b) :: r) = true -> pure c = true /\ frag2_all b = true /\ frag2_branches r = true.
Proof. cbn [frag2_branches fst snd]. rewrite !andb_true_iff. tauto. Qed.
Lemma frag2_branches_pure l : frag2_branches l = true -> forall cb, In cb l -> pure (fst cb) = true.
Proof.
  induction l as [|[c b] r IH]; intros H cb Hin; [destruct Hin|]. apply frag2_branches_cons in H as (Hp & _ & Hr).
  destruct Hin as [<-|Hin]; [exact Hp|exact (IH Hr cb Hin)].
Qed.
Lemma frag2_for init cond incr body :
  frag2 (SFor init cond incr body) = true -> simple_opt init = true /\ pure cond = true /\ simple_opt incr = true /\ frag2_all body = true.
Proof. cbn [frag2]. rewrite frag2_all_eq, !andb_true_iff. tauto. Qed.

(* the first-round flag of the loop with number k (cv_for_start numbers the loops by b_for_counter) *)
Definition fname (k : nat) : bytes := bs "_fv" ++ dec_nat k.

Definition incr_part (incr : option stmt) : M (St:=bstate) unit :=
  match incr with
  | Some i => mbind (cv_for_incr_start bstate atom bash_conv) (fun _ => mbind (t_stmt bash_conv i) (fun _ => cv_for_incr_end bstate atom bash_conv))
  | None => mret tt
  end.

(* the exit test at the top of a round: the lines of the condition, then  if [ c -ne 1 ]; then break; fi  *)
Definition exit_test (cond : expr) : M (St:=bstate) unit :=
  mbind (t_expr bash_conv cond true) (fun vc => upd (cv_for_condition bstate atom bash_conv (first_value bash_conv vc))).

Definition round_rest (cond : expr) (body : list stmt) : M (St:=bstate) unit := mbind (exit_test cond) (fun _ => tb body).

Lemma for_decompose init cond incr body s u s' :
  t_stmt bash_conv (SFor init cond incr body) s = TOk u s' ->
  exists si sn sd,
    (match init with Some i => t_stmt bash_conv i s | None => TOk tt s end) = TOk tt si /\
    incr_part incr (cv_for_start bstate atom bash_conv si) = TOk tt sn /\
    round_rest cond body sn = TOk tt sd /\
    cv_for_end bstate atom bash_conv sd = TOk tt s'.
Proof.
  intro H. cbn [t_stmt] in H.
  mb H as u0 si H0 H. mb H as u1 sf H1 H. mu H1. subst sf. mb H as u2 sn H2 H. mb H as vc sc H3 H. mb H as u4 sb H4 H. mu H4. subst sb.
  mb H as u5 sd H5 H. destruct u0, u2, u5, u.
  exists si, sn, sd. split; [destruct init; exact H0|]. split; [destruct incr; exact H2|]. split; [|exact H].
  unfold round_rest, exit_test, mbind, upd. rewrite H3. exact H5.
Qed.

Lemma simple_stmt_e3 st s u s' : simple_stmt st = true -> t_stmt bash_conv st s = TOk u s' -> emits3 s s'.
Proof.
  intros Hs Ht. destruct st; try discriminate; cbn [simple_stmt] in Hs.
  - destruct vars as [|x [|? ?]]; try discriminate. destruct vals as [|e [|? ?]]; try discriminate.
    change (t_stmt bash_conv (SVarDef [x] [e]) s) with (t_stmt bash_conv (SAssign [x] [e]) s) in Ht. exact (assign_any_e3 [x] [e] s u s' Ht).
  - destruct vars as [|x [|? ?]]; try discriminate. destruct vals as [|e [|? ?]]; try discriminate. exact (assign_any_e3 [x] [e] s u s' Ht).
Qed.

Definition stmt_e3 (st : stmt) : Prop := frag2 st = true -> forall s u s', t_stmt bash_conv st s = TOk u s' -> emits3 s s'.

Lemma go_e3 b : Forall stmt_e3 b -> frag2_all b = true -> forall s u s', go_fix b s = TOk u s' -> emits3 s s'.
Proof.
  induction b as [|x r IH]; intros HF Hf s u s' H.
  - mr H. apply e3_refl.
  - inversion HF as [|y l Hx Hr]; subst. cbn [frag2_all] in Hf. apply andb_true_iff in Hf as [Fx Fr].
    cbn [go_fix] in H. mb H as u1 s1 H1 H2. eapply e3_trans; [exact (Hx Fx _ _ _ H1)|exact (IH Hr Fr _ _ _ H2)].
Qed.

Lemma tb_e3 b : Forall stmt_e3 b -> frag2_all b = true -> forall s u s', tb b s = TOk u s' -> emits3 s s'.
Proof.
  intros HF Hf s u s' H. destruct b as [|x r].
  - unfold tb in H. mu H. subst s'. apply e3_line. reflexivity.
  - exact (go_e3 (x :: r) HF Hf s u s' H).
Qed.

Lemma rest_e3 cond body : Forall stmt_e3 body -> frag2_all body = true -> E3 (round_rest cond body).
Proof.
  intros HF Hf. apply E3_bind; [|intros _; exact (tb_e3 body HF Hf)].
  apply E3_bind; [apply E3_expr|]. intros vc s a s' H. mu H. subst s'. rewrite bash_for_condition. exact (e3_line (LBreakUnless _) s eq_refl).
Qed.

Definition emits_tail3 (s s' : bstate) : Prop := exists T, cext s s' T /\ tail3 T /\ b_fors s' = b_fors s.

Lemma else_tail3 els : Forall stmt_e3 els -> frag2_all els = true -> forall s s1,
  else_part els s = TOk tt s1 -> emits_tail3 s (add_line LFi s1).
Proof.
  intros HF Hf s s1 H. destruct els as [|x r].
  - mr H. exists [LFi]. split; [apply cext_line|]. split; [apply tail3_fi|reflexivity].
  - unfold else_part in H. mb H as u1 s2 H1 H2. rewrite bash_else_start in H1. inversion H1; subst; clear H1.
    destruct (tb_e3 (x :: r) HF Hf _ _ _ H2) as (B & EB & CB & FB).
    exists ([LElse] ++ B ++ [LFi]). split; [|split; [apply tail3_else; exact CB|exact FB]].
    eapply cext_trans; [apply cext_line|]. eapply cext_trans; [exact EB|apply cext_line].
Qed.

Lemma bodies_tail3 elifs : Forall (fun cb => Forall stmt_e3 (snd cb)) elifs -> frag2_branches elifs = true ->
  forall els, Forall stmt_e3 els -> frag2_all els = true ->
  forall cs s s1 s2, bodies_fix elifs cs s = TOk tt s1 -> else_part els s1 = TOk tt s2 ->
  emits_tail3 s (add_line LFi s2).
Proof.
  induction elifs as [|[c b] r IH]; intros HF Hf els HFe Hfe cs s s1 s2 Hb He.
  - mr Hb. exact (else_tail3 els HFe Hfe _ _ He).
  - destruct cs as [|v vr]; [discriminate|]. inversion HF as [|y l Hx Hr]; subst. cbn [snd] in Hx.
    apply frag2_branches_cons in Hf as (_ & Hfb & Hfr).
    destruct (bodies_step c b r v vr s tt s1 Hb) as (sm & Hm & Hrest).
    destruct (tb_e3 b Hx Hfb _ _ _ Hm) as (B & EB & CB & FB).
    destruct (IH Hr Hfr els HFe Hfe vr sm s1 s2 Hrest He) as (T & ET & CT & FT).
    exists ([LIf (bs "elif") v] ++ B ++ T). split; [|split; [apply tail3_elif; assumption|]].
    + eapply cext_trans; [apply cext_line|]. eapply cext_trans; [exact EB|exact ET].
    + rewrite FT, FB. reflexivity.
Qed.

Lemma current_flag_after_start si : current_flag (cv_for_start bstate atom bash_conv si) = Some (fname (b_for_counter si)).
Proof. rewrite bash_for_start. unfold current_flag, fname. cbn [add_line b_fors]. rewrite rev_app_distr. reflexivity. Qed.

Lemma for_start_cext si : cext si (cv_for_start bstate atom bash_conv si) [LForInit (fname (b_for_counter si)); LWhile].
Proof. rewrite bash_for_start. constructor; cbn [add_line b_code b_funcs b_func_counter b_for_counter]; [rewrite <- app_assoc; reflexivity|reflexivity|reflexivity|lia]. Qed.

Lemma for_start_counter si : b_for_counter (cv_for_start bstate atom bash_conv si) = S (b_for_counter si).
Proof. rewrite bash_for_start. reflexivity. Qed.

Lemma for_end_cext sd s' : cv_for_end bstate atom bash_conv sd = TOk tt s' -> cext sd s' [LDone] /\ b_fors s' = removelast (b_fors sd).
Proof.
  intro H. rewrite bash_for_end in H. destruct (b_fors sd) eqn:E; [discriminate|]. inversion H. split; [constructor; reflexivity|].
  cbn [b_fors add_line]. rewrite E. reflexivity.
Qed.

(* the increment clause, between its guard and the line that sets the flag *)
Lemma incr_decompose st si sn :
  incr_part (Some st) (cv_for_start bstate atom bash_conv si) = TOk tt sn -> simple_stmt st = true ->
  exists s2 Bi, t_stmt bash_conv st (add_line (LIncrGuard (fname (b_for_counter si))) (cv_for_start bstate atom bash_conv si)) = TOk tt s2 /\
     cext (add_line (LIncrGuard (fname (b_for_counter si))) (cv_for_start bstate atom bash_conv si)) s2 Bi /\ cl3 Bi /\
     sn = add_line (LFlagSet (fname (b_for_counter si))) (add_line LFi s2) /\ b_fors s2 = b_fors (cv_for_start bstate atom bash_conv si).
Proof.
  intros En Hs. unfold incr_part in En. mb En as u1 s1 H1 H2. rewrite bash_for_incr_start, current_flag_after_start in H1. inversion H1; subst s1; clear H1.
  mb H2 as u2 s2 H2 H3. destruct u2. destruct (simple_stmt_e3 st _ tt s2 Hs H2) as (Bi & EBi & CBi & FBi).
  rewrite bash_for_incr_end in H3. unfold current_flag in H3. rewrite FBi in H3. cbn [add_line b_fors] in H3.
  rewrite rev_app_distr in H3. cbn [rev app] in H3. inversion H3.
  exists s2, Bi. split; [exact H2|]. split; [exact EBi|]. split; [exact CBi|]. split; [reflexivity|exact FBi].
Qed.

Lemma args_e3 : forall es, E3 (args_of_fix bash_conv es).
Proof.
  induction es as [|e r IH]; cbn [args_of_fix]; [apply E3_ret|].
  apply E3_bind; [apply E3_expr|intro va]. apply E3_bind; [exact IH|intro vr; apply E3_ret].
Qed.

Lemma args_as_pv : forall l s vs s', forallb pure l = true -> args_of_fix bash_conv l s = TOk vs s' -> pv_fix l s = TOk vs s'.
Proof.
  induction l as [|e r IH]; intros s vs s' Hp H; [exact H|].
  cbn [forallb] in Hp. apply andb_true_iff in Hp as [Hpe Hpr].
  cbn [args_of_fix] in H. mb H as va s1 H1 H2. mb H2 as vr s2 H2 H3. mr H3.
  destruct (pure_single e Hpe true s va s1 H1) as [a ->]. cbn [first_value].
  cbn [pv_fix]. unfold mbind. rewrite H1. rewrite (IH s1 vr s' Hpr H2). reflexivity.
Qed.

Lemma rv_name_inj i j : rv_name i = rv_name j -> i = j.
Proof. unfold rv_name. intro H. apply app_inv_head in H. unfold dec_nat in H. apply dec_N_inj in H. apply Nat2N.inj in H. exact H. Qed.

Lemma rv_exec : forall vs i b, (forall a j, In a vs -> a <> ARef (rv_name j)) ->
  exists b', exec_outs b (rv_lines vs i) = Some (b', []) /\
             (forall j v, nth_error vs j = Some v -> sh_get (rv_name (i + j)) b' = atom_text b v) /\
             (forall n, (forall j, (i <= j)%nat -> n <> rv_name j) -> sh_get n b' = sh_get n b).
Proof.
  induction vs as [|v r IH]; intros i b Hno.
  - exists b. split; [reflexivity|]. split; [intros j w H; destruct j; discriminate|intros; reflexivity].
  - cbn [rv_lines exec_outs exec_out exec_line eval_rhs].
    set (b1 := sh_set (rv_name i) (atom_text b v) b).
    assert (forall a, In a r -> atom_text b1 a = atom_text b a) as Hsame.
    { intros a Ha. destruct a as [t|n]; [reflexivity|]. cbn [atom_text]. unfold b1. apply sh_get_set_other.
      intro Heq. apply (Hno (ARef n) i (or_intror Ha)). rewrite Heq. reflexivity. }
    destruct (IH (S i) b1 (fun a j Ha => Hno a j (or_intror Ha))) as (b' & Hx & Hv & Hf).
    exists b'. split; [rewrite Hx; reflexivity|]. split.
    + intros j w Hj. destruct j as [|j].
      * cbn [nth_error] in Hj. inversion Hj; subst w. rewrite Nat.add_0_r. rewrite Hf.
        -- unfold b1. apply sh_get_set_same.
        -- intros j Hj0 Heq. apply rv_name_inj in Heq. lia.
      * cbn [nth_error] in Hj. replace (i + S j)%nat with (S i + j)%nat by lia. rewrite (Hv j w Hj). apply Hsame. exact (nth_error_In _ _ Hj).
    + intros n Hn. rewrite (Hf n (fun j Hj => Hn j ltac:(lia))). unfold b1. apply sh_get_set_other. apply Hn. apply le_n.
Qed.

Lemma return_decompose es s u s' :
  t_stmt bash_conv (SReturn es) s = TOk u s' ->
  exists vs s1, args_of_fix bash_conv es s = TOk vs s1 /\ cext s1 s' (rv_lines vs 0 ++ [LReturn]) /\ b_fors s' = b_fors s1.
Proof.
  intro H. cbn [t_stmt] in H. mb H as vs s1 H1 H2. exists vs, s1. split; [exact H1|].
  change (cv_return bstate atom bash_conv vs s1) with (TOk (S:=bstate) tt (add_line LReturn (rv_fold vs s1 0))) in H2. inversion H2; subst.
  destruct (rv_fold_cext vs s1 0) as [E F]. split; [exact (cext_trans _ _ _ _ _ E (cext_line _ _))|exact F].
Qed.

Definition plain3 (l : line) : bool := plain_line l && match l with LWhile | LDone => false | _ => true end.

Lemma rv_lines_plain3 vs : forall i, forallb plain3 (rv_lines vs i) = true.
Proof. induction vs as [|v r IH]; intro i; [reflexivity|]. cbn [rv_lines forallb]. rewrite IH. reflexivity. Qed.

Lemma rv_lines_simple vs : forall i, forallb is_simple (rv_lines vs i) = true.
Proof. induction vs as [|v r IH]; intro i; [reflexivity|]. cbn [rv_lines forallb]. rewrite IH. reflexivity. Qed.

Lemma return_e3 es s u s' : t_stmt bash_conv (SReturn es) s = TOk u s' -> emits3 s s'.
Proof.
  intro H. destruct (return_decompose es s u s' H) as (vs & s1 & Ha & E & F).
  apply (e3_trans _ s1); [exact (args_e3 es s vs s1 Ha)|]. exists (rv_lines vs 0 ++ [LReturn]). split; [exact E|].
  split; [apply cl3_simple; rewrite forallb_app, rv_lines_simple; reflexivity|exact F].
Qed.

Theorem frag2_e3 : forall st, stmt_e3 st.
Proof.
  induction st using AstInd.stmt_ind'; intro Hf; try discriminate; intros s u s' Ht.
  - (* SVarDef *) change (t_stmt bash_conv (SVarDef vs es) s) with (t_stmt bash_conv (SAssign vs es) s) in Ht. exact (assign_any_e3 vs es s u s' Ht).
  - (* SVarDefCall *) change (t_stmt bash_conv (SVarDefCall vs c) s) with (t_stmt bash_conv (SAssignCall vs c) s) in Ht. exact (assign_call_e3 vs c s u s' Ht).
  - (* SAssign *) exact (assign_any_e3 vs es s u s' Ht).
  - (* SAssignCall *) exact (assign_call_e3 vs c s u s' Ht).
  - (* SReturn *) exact (return_e3 es s u s' Ht).
  - (* SIf *)
    destruct brs as [|[c0 b0] elifs]; [discriminate|]. apply frag2_if in Hf as (_ & Hf0 & Hfb & Hfe).
    inversion H as [|y l Hb0 Hel]; subst. cbn [snd] in Hb0.
    destruct (if_decompose c0 b0 elifs els s u s' Ht) as (a0 & cs & sc & sb0 & sch & sel & Ec & Eb0 & Ech & Eel & ->).
    destruct (tb_e3 b0 Hb0 Hf0 _ _ _ Eb0) as (B0 & EB0 & CB0 & FB0).
    destruct (bodies_tail3 elifs Hel Hfb els H0 Hfe cs sb0 sch sel Ech Eel) as (T & ET & CT & FT).
    eapply e3_trans; [exact (conds_e3 _ _ _ _ Ec)|].
    exists ([LIf (bs "if") a0] ++ B0 ++ T). split; [|split; [apply cl3_if; assumption|]].
    + eapply cext_trans; [apply cext_line|]. eapply cext_trans; [exact EB0|exact ET].
    + rewrite FT, FB0. reflexivity.
  - (* SFor *)
    rename H into IHi, H0 into IHn, H1 into IHb.
    apply frag2_for in Hf as (Hfi & Hpc & Hfn & Hfb).
    destruct (for_decompose i c n body s u s' Ht) as (si & sn & sd & Ei & En & Er & Ee).
    assert (emits3 s si) as E1.
    { destruct i as [st|]; [exact (simple_stmt_e3 st s tt si Hfi Ei)|inversion Ei; subst; apply e3_refl]. }
    set (sf := cv_for_start bstate atom bash_conv si) in *.
    assert (emits3 sf sn) as E2.
    { destruct n as [st|]; [|unfold incr_part in En; mr En; apply e3_refl].
      destruct (incr_decompose st si sn En Hfn) as (s2 & Bi & _ & EBi & CBi & -> & FBi).
      exists ([LIncrGuard (fname (b_for_counter si))] ++ Bi ++ [LFi; LFlagSet (fname (b_for_counter si))]).
      split; [exact (cext_trans _ _ _ _ _ (cext_line _ sf) (cext_trans _ _ _ _ _ EBi (cext_lines2 _ _ s2)))|].
      split; [apply cl3_incr; exact CBi|exact FBi]. }
    destruct (e3_trans _ _ _ E2 (rest_e3 c body IHb Hfb sn tt sd Er)) as (R & ER & CR & FR).
    destruct (for_end_cext sd s' Ee) as [EE FE].
    apply (e3_trans _ si); [exact E1|].
    exists ([LForInit (fname (b_for_counter si)); LWhile] ++ R ++ [LDone]).
    split; [exact (cext_trans _ _ _ _ _ (for_start_cext si) (cext_trans _ _ _ _ _ ER EE))|]. split; [apply cl3_loop; exact CR|].
    rewrite FE, FR. unfold sf. rewrite bash_for_start. cbn [add_line b_fors]. apply removelast_last.
  - (* SBreak *) cbn [t_stmt] in Ht. rewrite bash_break in Ht. inversion Ht; subst. apply e3_line. reflexivity.
  - (* SContinue *) cbn [t_stmt] in Ht. rewrite bash_continue in Ht. inversion Ht; subst. apply e3_line. reflexivity.
  - (* SPrint *) exact (print_e3 es s u s' Ht).
  - (* SExpr *) cbn [t_stmt] in Ht. mb Ht as vs s1 H1 H2. mr H2. exact (e3_expr _ _ _ _ _ H1).
Qed.

(* the parking variables of a simultaneous assignment *)
Definition ma_var (s : bstate) (i : nat) : bytes := var_name s (ma_name i) false.

Lemma ma_var_cext s s' ls i : cext s s' ls -> ma_var s' i = ma_var s i.
Proof. intros E. unfold ma_var, var_name. rewrite (cx_funcs _ _ _ E), (cx_fcnt _ _ _ E). reflexivity. Qed.

Lemma ma_not_helper s i k : ma_var s i <> helper_name s k.
Proof. unfold ma_var, helper_name, var_name, ma_name. destruct ((0 <? b_funcs s)%nat && negb false); intro H; [apply app_inv_head in H; apply app_inv_head in H|]; cbn in H; inversion H. Qed.

Lemma ma_var_inj s i j : ma_var s i = ma_var s j -> i = j.
Proof.
  unfold ma_var, var_name, ma_name. destruct ((0 <? b_funcs s)%nat && negb false); intro H.
  - do 4 apply app_inv_head in H. apply dec_N_inj in H. apply Nat2N.inj in H. exact H.
  - apply app_inv_head in H. apply dec_N_inj in H. apply Nat2N.inj in H. exact H.
Qed.

Fixpoint assign_all (sg : senv) (xs : list var) (vals : list value) : senv :=
  match xs, vals with x :: xr, v :: vr => assign_all (supd sg x v) xr vr | _, _ => sg end.

Lemma refs_length name : forall n k, length (refs name k n) = n.
Proof. induction n as [|n IH]; intro k; [reflexivity|]. cbn [refs length]. rewrite IH. reflexivity. Qed.

Lemma refs_in name : forall n k a, In a (refs name k n) -> exists j, a = ARef (name j).
Proof. induction n as [|n IH]; intros k a H; [destruct H|]. cbn [refs In] in H. destruct H as [<-|H]; [exists k; reflexivity|exact (IH (S k) a H)]. Qed.

Lemma refs_ext f g : (forall j, f j = g j) -> forall n k, refs f k n = refs g k n.
Proof. intros H. induction n as [|n IH]; intro k; [reflexivity|]. cbn [refs]. rewrite H, IH. reflexivity. Qed.

Lemma refs_values (name : nat -> bytes) : forall (vals : list value) (k : nat) b,
  (forall j v, nth_error vals j = Some v -> sh_get (name (k + j)%nat) b = text v) ->
  map (atom_text b) (refs name k (length vals)) = map text vals.
Proof.
  induction vals as [|v vr IH]; intros k b H; [reflexivity|].
  cbn [length refs map atom_text]. rewrite <- (Nat.add_0_r k) at 1. rewrite (H 0%nat v eq_refl). f_equal.
  apply (IH (S k) b). intros j w Hj. replace (S k + j)%nat with (k + S j)%nat by lia. exact (H (S j) w Hj).
Qed.

Lemma rv_not_helper s i k : rv_name i <> helper_name s k.
Proof. unfold rv_name, helper_name, var_name. destruct ((0 <? b_funcs s)%nat && negb false); intro H; cbn in H; inversion H. Qed.

Lemma copies_exec st : forall n k i b,
  exists b', exec_outs b (copy_lines st k i n) = Some (b', []) /\
             (forall j, (j < n)%nat -> sh_get (helper_name st (k + j)) b' = sh_get (rv_name (i + j)) b) /\
             (forall m, (forall j, (k <= j)%nat -> m <> helper_name st j) -> sh_get m b' = sh_get m b).
Proof.
  induction n as [|n IH]; intros k i b.
  - exists b. split; [reflexivity|]. split; [intros j Hj; lia|intros; reflexivity].
  - cbn [copy_lines exec_outs exec_out exec_line eval_rhs atom_text].
    set (b1 := sh_set (helper_name st k) (sh_get (rv_name i) b) b).
    destruct (IH (S k) (S i) b1) as (b' & Hx & Hv & Hf). exists b'. split; [rewrite Hx; reflexivity|]. split.
    + intros j Hj. destruct j as [|j].
      * rewrite Nat.add_0_r, Nat.add_0_r. rewrite Hf; [unfold b1; apply sh_get_set_same|].
        intros j Hj0 Heq. apply helper_name_inj in Heq. lia.
      * replace (k + S j)%nat with (S k + j)%nat by lia. replace (i + S j)%nat with (S i + j)%nat by lia.
        rewrite (Hv j ltac:(lia)). unfold b1. apply sh_get_set_other. apply rv_not_helper.
    + intros m Hm. rewrite (Hf m (fun j Hj => Hm j ltac:(lia))). unfold b1. apply sh_get_set_other. apply Hm. apply le_n.
Qed.

Section WithCalls.
Lemma call_decompose f rets args used s vs s' :
  t_expr bash_conv (ECall f rets args) used s = TOk vs s' ->
  exists va s1, args_of_fix bash_conv args s = TOk va s1 /\
    (if used && negb (Nat.eqb (length (fst (cv_func_call bstate atom bash_conv f va rets used s1))) (length rets)) then False
     else cv_func_call bstate atom bash_conv f va rets used s1 = (vs, s')).
Proof.
  intro H. cbn [t_expr] in H. mb H as va s1 H1 H2. exists va, s1. split; [exact H1|].
  mb H2 as res s2 H2 H3. unfold lift in H2. destruct (cv_func_call bstate atom bash_conv f va rets used s1) as [res0 s20] eqn:E.
  inversion H2; subst res0 s20. cbn [fst]. destruct (used && negb (Nat.eqb (length res) (length rets))); [discriminate|]. mr H3. reflexivity.
Qed.

Lemma bash_call_unused f va rets s :
  cv_func_call bstate atom bash_conv f va rets false s = (map (fun _ => ALit []) rets, add_line (LCall f va) s).
Proof. reflexivity. Qed.

(* what a function call does (see Sem/FlatLoop.v), the positional parameters of the function body being run, and the loop
   counter at the start of the definition-free stretch of code we are in: functions called from it were translated
   before it, so their loops have flags with smaller numbers *)
Variable call : nat -> bytes -> list bytes -> shenv -> option (shenv * bytes).
Variable pos : list bytes.
Hypothesis call_mono : fuel_mono call.
Variable klo : nat.
(* functions with a number below mlo may run while this stretch of code runs (they were defined before it) *)
Variable mlo : nat.
(* the source side of a call: function, argument values, environment -> result values, environment afterwards, output *)
Variable scall : list var -> bytes -> list value -> senv -> list value -> senv -> bytes -> Prop.

Lemma fname_not_ma s k i : fname k <> ma_var s i.
Proof. unfold fname, ma_var, var_name, ma_name. destruct ((0 <? b_funcs s)%nat && negb false); intro H; cbn in H; inversion H. Qed.

Lemma fname_not_helper s k j : fname k <> helper_name s j.
Proof.
  unfold fname, helper_name, var_name. destruct ((0 <? b_funcs s)%nat && negb false); intro H; cbn in H; inversion H.
Qed.

Definition fresh_flags (XS : list var) (s : bstate) : Prop :=
  (forall x k, In x XS -> user_name s x <> fname k) /\ (forall x i, In x XS -> user_name s x <> rv_name i) /\ (klo <= b_for_counter s)%nat /\
  (forall x c y, In x XS -> (c < mlo)%nat -> user_name s x <> mangled c y) /\
  (forall x i, In x XS -> user_name s x <> ma_var s i).

Lemma fresh_flag XS s x k : fresh_flags XS s -> In x XS -> user_name s x <> fname k.
Proof. intros (F & _) Hx. exact (F x k Hx). Qed.
Lemma fresh_rv XS s x i : fresh_flags XS s -> In x XS -> user_name s x <> rv_name i.
Proof. intros (_ & F & _) Hx. exact (F x i Hx). Qed.
Lemma fresh_klo XS s : fresh_flags XS s -> (klo <= b_for_counter s)%nat.
Proof. intros (_ & _ & F & _). exact F. Qed.
Lemma fresh_ma XS s x i : fresh_flags XS s -> In x XS -> user_name s x <> ma_var s i.
Proof. intros (_ & _ & _ & _ & F) Hx. exact (F x i Hx). Qed.

(* a block may write: the program's variables, the helpers of the current context, loop flags outside the protected
   range [klo, loop counter), the parking variables _ma<i> of simultaneous assignments, and -- through calls -- mangled
   names and return registers *)
Definition untouched (XS : list var) (s s' : bstate) (b b' : shenv) : Prop :=
  forall n, (forall x, In x XS -> n <> user_name s x) -> (forall k, n <> helper_name s k) ->
            (forall k, (k < klo \/ b_for_counter s <= k < b_for_counter s')%nat -> n <> fname k) ->
            (forall c x, (c < mlo)%nat -> n <> mangled c x) -> (forall i, n <> rv_name i) -> (forall i, n <> ma_var s i) ->
            sh_get n b' = sh_get n b.

(* the oracle refines the source side of calls: results arrive in the return registers, the caller's variables
   (XS: also the globals the function may write) stay represented, nothing protected is written *)
Definition call_refines : Prop :=
  forall XS f vals sg rvals sg1 o b s,
    scall XS f vals sg rvals sg1 o -> env_ok sg -> ctx_ok XS sg b s -> fresh_flags XS s ->
    exists b1, (exists f0, forall fu, (f0 <= fu)%nat -> call fu f (map text vals) b = Some (b1, o)) /\ ctx_ok XS sg1 b1 s /\ untouched XS s s b b1 /\
               (forall i v, nth_error rvals i = Some v -> sh_get (rv_name i) b1 = text v).
Hypothesis call_ok : call_refines.

Lemma untouched_refl XS s s' b : untouched XS s s' b b.
Proof. intros n _ _ _ _ _ _. reflexivity. Qed.

Lemma untouched_gen XS s0 s s' s0' ls b b' :
  cext s0 s ls -> (b_for_counter s' <= b_for_counter s0')%nat -> untouched XS s s' b b' -> untouched XS s0 s0' b b'.
Proof.
  intros E M U n Hu Hh Hf Hm Hr Hma. pose proof (cx_mono _ _ _ E) as M0. apply U.
  - intros x Hx. rewrite (user_name_cext _ _ _ x E). apply Hu. exact Hx.
  - intro k. rewrite (helper_name_cext _ _ _ k E). apply Hh.
  - intros k Hk. apply Hf. lia.
  - exact Hm.
  - exact Hr.
  - intro i. rewrite (ma_var_cext _ _ _ i E). apply Hma.
Qed.

Lemma untouched_compose XS s s' b b1 b2 : untouched XS s s' b b1 -> untouched XS s s' b1 b2 -> untouched XS s s' b b2.
Proof. intros U1 U2 n Hu Hh Hf Hm Hr Hma. rewrite (U2 n Hu Hh Hf Hm Hr Hma). exact (U1 n Hu Hh Hf Hm Hr Hma). Qed.

Lemma untouched_trans XS s s1 s2 ls b b1 b2 :
  cext s s1 ls -> (b_for_counter s1 <= b_for_counter s2)%nat -> untouched XS s s1 b b1 -> untouched XS s1 s2 b1 b2 -> untouched XS s s2 b b2.
Proof.
  intros E M U1 U2. apply (untouched_compose XS s s2 b b1 b2).
  - exact (untouched_gen XS s s s1 s2 [] b b1 (cext_refl s) M U1).
  - exact (untouched_gen XS s s1 s2 s2 ls b1 b2 E (le_n _) U2).
Qed.

(* The source side.  A signal says how a block ends: SN at its end (what follows runs), SB / SC with a break / continue
   that nothing inside the block caught, SR with a return and its values.  Loop first cond incr body stands for the rounds
   of a loop that are still to run; first: the next round is the first one, in which the increment clause is left out. *)
Inductive sig := SN | SB | SC | SR (rvals : list value).
Inductive code := Prog (body : list stmt) | Loop (first : bool) (cond : expr) (incr : option stmt) (body : list stmt).
Definition opt_list (o : option stmt) : list stmt := match o with Some st => [st] | None => [] end.

Definition incr_of (first : bool) (incr : option stmt) : list stmt := if first then [] else opt_list incr.

Inductive J (XS : list var) : code -> senv -> senv -> bytes -> sig -> Prop :=
| j_nil sg : J XS (Prog []) sg sg [] SN
| j_assign sg x e v r sg' out g :
    pure e = true -> side XS e -> In x XS -> peval sg e = Some v -> env_ok (supd sg x v) ->
    J XS (Prog r) (supd sg x v) sg' out g -> J XS (Prog (SAssign [x] [e] :: r)) sg sg' out g
| j_define sg x e v r sg' out g :
    pure e = true -> side XS e -> In x XS -> peval sg e = Some v -> env_ok (supd sg x v) ->
    J XS (Prog r) (supd sg x v) sg' out g -> J XS (Prog (SVarDef [x] [e] :: r)) sg sg' out g
| j_assign_multi sg xs es vals r sg' out g :
    forallb pure es = true -> (forall e, In e es -> side XS e) -> (forall x, In x xs -> In x XS) -> (2 <= length xs)%nat ->
    length es = length xs -> pevals sg es = Some vals -> env_ok (assign_all sg xs vals) ->
    J XS (Prog r) (assign_all sg xs vals) sg' out g -> J XS (Prog (SAssign xs es :: r)) sg sg' out g
| j_define_multi sg xs es vals r sg' out g :
    forallb pure es = true -> (forall e, In e es -> side XS e) -> (forall x, In x xs -> In x XS) -> (2 <= length xs)%nat ->
    length es = length xs -> pevals sg es = Some vals -> env_ok (assign_all sg xs vals) ->
    J XS (Prog r) (assign_all sg xs vals) sg' out g -> J XS (Prog (SVarDef xs es :: r)) sg sg' out g
| j_print sg es vals r sg' out g :
    forallb pure es = true -> (forall e, In e es -> side XS e) -> pevals sg es = Some vals ->
    J XS (Prog r) sg sg' out g -> J XS (Prog (SPrint es :: r)) sg sg' (join [32] (map text vals) ++ [10] ++ out) g
| j_call_assign sg x f t args vals rv sg1 o r sg' out g :
    forallb pure args = true -> (forall e, In e args -> side XS e) -> In x XS -> pevals sg args = Some vals ->
    scall XS f vals sg [rv] sg1 o -> env_ok (supd sg1 x rv) ->
    J XS (Prog r) (supd sg1 x rv) sg' out g -> J XS (Prog (SAssignCall [x] (ECall f [t] args) :: r)) sg sg' (o ++ out) g
| j_call_define sg x f t args vals rv sg1 o r sg' out g :
    forallb pure args = true -> (forall e, In e args -> side XS e) -> In x XS -> pevals sg args = Some vals ->
    scall XS f vals sg [rv] sg1 o -> env_ok (supd sg1 x rv) ->
    J XS (Prog r) (supd sg1 x rv) sg' out g -> J XS (Prog (SVarDefCall [x] (ECall f [t] args) :: r)) sg sg' (o ++ out) g
| j_call_assign_multi sg xs f rets args vals rvals sg1 o r sg' out g :
    forallb pure args = true -> (forall e, In e args -> side XS e) -> (forall x, In x xs -> In x XS) -> pevals sg args = Some vals ->
    scall XS f vals sg rvals sg1 o -> length rets = length xs -> length rvals = length xs -> env_ok (assign_all sg1 xs rvals) ->
    J XS (Prog r) (assign_all sg1 xs rvals) sg' out g -> J XS (Prog (SAssignCall xs (ECall f rets args) :: r)) sg sg' (o ++ out) g
| j_call_define_multi sg xs f rets args vals rvals sg1 o r sg' out g :
    forallb pure args = true -> (forall e, In e args -> side XS e) -> (forall x, In x xs -> In x XS) -> pevals sg args = Some vals ->
    scall XS f vals sg rvals sg1 o -> length rets = length xs -> length rvals = length xs -> env_ok (assign_all sg1 xs rvals) ->
    J XS (Prog r) (assign_all sg1 xs rvals) sg' out g -> J XS (Prog (SVarDefCall xs (ECall f rets args) :: r)) sg sg' (o ++ out) g
| j_call_stmt sg f rets args vals rvals sg1 o r sg' out g :
    forallb pure args = true -> (forall e, In e args -> side XS e) -> pevals sg args = Some vals ->
    scall XS f vals sg rvals sg1 o -> env_ok sg1 ->
    J XS (Prog r) sg1 sg' out g -> J XS (Prog (SExpr (ECall f rets args) :: r)) sg sg' (o ++ out) g
| j_return sg es rvals r :
    forallb pure es = true -> (forall e, In e es -> side XS e) -> pevals sg es = Some rvals -> frag2_all r = true ->
    J XS (Prog (SReturn es :: r)) sg sg [] (SR rvals)
| j_break sg r : frag2_all r = true -> J XS (Prog (SBreak :: r)) sg sg [] SB
| j_continue sg r : frag2_all r = true -> J XS (Prog (SContinue :: r)) sg sg [] SC
| j_if_next sg c0 b0 elifs els bools sgm outm r sg' out g :
    frag2 (SIf ((c0, b0) :: elifs) els) = true -> (forall cb, In cb ((c0, b0) :: elifs) -> side XS (fst cb)) ->
    pevals sg (c0 :: map fst elifs) = Some (map VBool bools) ->
    J XS (Prog (pick bools (b0 :: map snd elifs) els)) sg sgm outm SN ->
    J XS (Prog r) sgm sg' out g ->
    J XS (Prog (SIf ((c0, b0) :: elifs) els :: r)) sg sg' (outm ++ out) g
| j_if_stop sg c0 b0 elifs els bools sgm outm r g :
    frag2 (SIf ((c0, b0) :: elifs) els) = true -> (forall cb, In cb ((c0, b0) :: elifs) -> side XS (fst cb)) ->
    pevals sg (c0 :: map fst elifs) = Some (map VBool bools) ->
    J XS (Prog (pick bools (b0 :: map snd elifs) els)) sg sgm outm g -> g <> SN -> frag2_all r = true ->
    J XS (Prog (SIf ((c0, b0) :: elifs) els :: r)) sg sgm outm g
| j_for sg init cond incr body sg1 o1 sg2 o2 r sg' out g :
    frag2 (SFor init cond incr body) = true -> side XS cond ->
    J XS (Prog (opt_list init)) sg sg1 o1 SN ->
    J XS (Loop true cond incr body) sg1 sg2 o2 SN ->
    J XS (Prog r) sg2 sg' out g ->
    J XS (Prog (SFor init cond incr body :: r)) sg sg' (o1 ++ o2 ++ out) g
| j_for_return sg init cond incr body sg1 o1 sg2 o2 rv r :
    frag2 (SFor init cond incr body) = true -> side XS cond -> frag2_all r = true ->
    J XS (Prog (opt_list init)) sg sg1 o1 SN ->
    J XS (Loop true cond incr body) sg1 sg2 o2 (SR rv) ->
    J XS (Prog (SFor init cond incr body :: r)) sg sg2 (o1 ++ o2) (SR rv)
| l_exit first cond incr body sg sg1 o1 :
    J XS (Prog (incr_of first incr)) sg sg1 o1 SN -> peval sg1 cond = Some (VBool false) ->
    J XS (Loop first cond incr body) sg sg1 o1 SN
| l_break first cond incr body sg sg1 o1 sg2 o2 :
    J XS (Prog (incr_of first incr)) sg sg1 o1 SN -> peval sg1 cond = Some (VBool true) ->
    J XS (Prog body) sg1 sg2 o2 SB ->
    J XS (Loop first cond incr body) sg sg2 (o1 ++ o2) SN
| l_next first cond incr body sg sg1 o1 sg2 o2 gb sg3 o3 g3 :
    J XS (Prog (incr_of first incr)) sg sg1 o1 SN -> peval sg1 cond = Some (VBool true) ->
    J XS (Prog body) sg1 sg2 o2 gb -> (gb = SN \/ gb = SC) ->
    J XS (Loop false cond incr body) sg2 sg3 o3 g3 ->
    J XS (Loop first cond incr body) sg sg3 (o1 ++ o2 ++ o3) g3
| l_return first cond incr body sg sg1 o1 sg2 o2 rv :
    J XS (Prog (incr_of first incr)) sg sg1 o1 SN -> peval sg1 cond = Some (VBool true) ->
    J XS (Prog body) sg1 sg2 o2 (SR rv) ->
    J XS (Loop first cond incr body) sg sg2 (o1 ++ o2) (SR rv).

(* every rule that changes the environment has env_ok of the new one among its premises *)
Lemma J_env XS c sg sg' out g : J XS c sg sg' out g -> env_ok sg -> env_ok sg'.
Proof. induction 1; intro He; auto. Qed.

Definition lruns (e : shenv) (L : list (list line)) (ls : list line) (res : shenv * bytes) : Prop := exists f, lrun call pos f false e L ls = Some res.
(* the same in either mode: running, or seeking the branch of a conditional to run; lruns is lgo false, and the proofs
   pass from the one to the other by conversion *)
Definition lgo (seek : bool) (e : shenv) (L : list (list line)) (ls : list line) (res : shenv * bytes) : Prop := exists f, lrun call pos f seek e L ls = Some res.

Lemma lgo_step {k1 k2 e e' L L' l rest rest' res} :
  (forall f, lrun call pos (S f) k1 e L (l :: rest) = lrun call pos f k2 e' L' rest') -> lgo k2 e' L' rest' res -> lgo k1 e L (l :: rest) res.
Proof. intros H [f Hf]. exists (S f). rewrite H. exact Hf. Qed.

Lemma lruns_straight P : forall e e1 o1 L rest res,
  exec_outs e P = Some (e1, o1) -> lruns e1 L rest res -> lruns e L (P ++ rest) (prepend o1 res).
Proof.
  induction P as [|l r IH]; intros e e1 o1 L rest res H Hr.
  - cbn [exec_outs] in H. inversion H; subst. destruct res as [e2 o2]. exact Hr.
  - cbn [exec_outs] in H. destruct (exec_out e l) as [[ea oa]|] eqn:El; [|discriminate].
    destruct (exec_outs ea r) as [[eb ob]|] eqn:Er; [|discriminate]. inversion H; subst; clear H.
    destruct (IH ea e1 ob L rest res Er Hr) as [f Hf]. exists (S f). cbn [app lrun].
    destruct l; try (cbn [exec_out exec_line] in El; discriminate);
      rewrite El, Hf; unfold prepend; cbn [fst snd]; rewrite app_assoc; reflexivity.
Qed.

(* what the machine must be able to do after a block that ends with a signal *)
Definition after (g : sig) (b' : shenv) (L : list (list line)) (rest : list line) (res : shenv * bytes) : Prop :=
  match g with
  | SN => lruns b' L rest res
  | SB => match L with _ :: L' => exists r', skip_done rest 0 = Some r' /\ lruns b' L' r' res | [] => False end
  | SC => match L with top :: _ => lruns b' L top res | [] => False end
  | SR _ => res = (b', [])                (* return ends the run of the function body, whatever follows *)
  end.

Definition regs (g : sig) (b' : shenv) : Prop :=
  match g with SR rvals => forall i v, nth_error rvals i = Some v -> sh_get (rv_name i) b' = text v | _ => True end.

Lemma after_skip g b' L Y rest res : g <> SN -> dclosed Y -> after g b' L rest res -> after g b' L (Y ++ rest) res.
Proof.
  intros Hg HY H. destruct g; [contradiction| |exact H|exact H]. cbn [after] in *. destruct L as [|t L']; [exact H|].
  destruct H as (r' & Hs & Hr). exists r'. split; [rewrite HY; exact Hs|exact Hr].
Qed.

Lemma lexit_tail T e L rest res : tail_ok T -> lruns e L rest res -> lruns e L (T ++ rest) res.
Proof.
  intros [_ _ T3 _ (l & r & -> & Hl)] [f Hf]. specialize (T3 rest). exists (S f). cbn [app lrun].
  destruct Hl as [->|[->|[c ->]]].
  - cbn [app skip_fi] in T3. injection T3 as T3'. rewrite T3'. exact Hf.
  - cbn [app skip_fi] in T3. rewrite T3. exact Hf.
  - cbn [app skip_fi] in T3. change (is_if (bs "elif")) with false in *. cbn iota in *. rewrite T3. exact Hf.
Qed.

Lemma after_tail g b' L T rest res : tail3 T -> after g b' L rest res -> after g b' L (T ++ rest) res.
Proof.
  intros [TO TD _] H. destruct g; [exact (lexit_tail T b' L rest res TO H)|apply after_skip; [discriminate|exact TD|exact H]|exact H|exact H].
Qed.

Lemma fresh_cext XS s s' ls : cext s s' ls -> fresh_flags XS s -> fresh_flags XS s'.
Proof.
  intros E [H1 [H2 [H3 [H4 H5]]]]. split; [|split; [|split; [|split]]].
  - intros x k Hx. rewrite (user_name_cext _ _ _ x E). exact (H1 x k Hx).
  - intros x i Hx. rewrite (user_name_cext _ _ _ x E). exact (H2 x i Hx).
  - pose proof (cx_mono _ _ _ E). lia.
  - intros x c y Hx Hc. rewrite (user_name_cext _ _ _ x E). exact (H4 x c y Hx Hc).
  - intros x i Hx. rewrite (user_name_cext _ _ _ x E), (ma_var_cext _ _ _ i E). exact (H5 x i Hx).
Qed.

(* From the translation state s and the shell environment b: the lines X emitted up to s' run, in continuation-passing
   style, to an environment that represents sg'; out is printed on the way and the block ends with the signal g. *)
Definition sim_at (seek : bool) (XS : list var) (sg' : senv) (out : bytes) (g : sig) (s s' : bstate) (b : shenv) : Prop :=
  exists X b', cext s s' X /\ env_ok sg' /\ ctx_ok XS sg' b' s' /\ untouched XS s s' b b' /\
               regs g b' /\ forall L rest res, after g b' L rest res -> lgo seek b L (X ++ rest) (prepend out res).

Definition steps (XS : list var) (sg : senv) (m : M (St:=bstate) unit) (sg' : senv) (out : bytes) (g : sig) : Prop :=
  forall s u s' b, m s = TOk u s' -> env_ok sg -> ctx_ok XS sg b s -> fresh_flags XS s -> sim_at false XS sg' out g s s' b.

Lemma steps_later {XS sg m sg' out g s0 s u s' b ls} :
  steps XS sg m sg' out g -> cext s0 s ls -> m s = TOk u s' -> env_ok sg -> ctx_ok XS sg b s0 -> fresh_flags XS s0 -> sim_at false XS sg' out g s s' b.
Proof. intros H E Ht Henv Hc Hfl. exact (H s u s' b Ht Henv (ctx_cext _ _ _ _ _ _ E Hc) (fresh_cext _ _ _ _ E Hfl)). Qed.

Lemma sim_prefix k1 k2 XS sg' o1 o2 g s s1 s' b b1 X1 :
  cext s s1 X1 -> untouched XS s s1 b b1 ->
  (forall L rest res, lgo k2 b1 L rest res -> lgo k1 b L (X1 ++ rest) (prepend o1 res)) ->
  sim_at k2 XS sg' o2 g s1 s' b1 -> sim_at k1 XS sg' (o1 ++ o2) g s s' b.
Proof.
  intros E1 U1 K1 (X2 & b2 & E2 & V2 & C2 & U2 & Rg & K2).
  exists (X1 ++ X2), b2. split; [exact (cext_trans _ _ _ _ _ E1 E2)|]. split; [exact V2|]. split; [exact C2|].
  split; [exact (untouched_trans XS s s1 s' X1 b b1 b2 E1 (cx_mono _ _ _ E2) U1 U2)|]. split; [exact Rg|].
  intros L rest res H. rewrite <- app_assoc, <- prepend_app. exact (K1 L _ _ (K2 L rest res H)).
Qed.

(* one line that changes nothing but where, or in which mode, the machine goes on *)
Lemma sim_line k1 k2 XS sg' o g l s s' b :
  (forall f L rest, lrun call pos (S f) k1 b L (l :: rest) = lrun call pos f k2 b L rest) ->
  sim_at k2 XS sg' o g (add_line l s) s' b -> sim_at k1 XS sg' o g s s' b.
Proof.
  intros K H. apply (sim_prefix k1 k2 XS sg' [] o g s _ s' b b [l] (cext_line l s) (untouched_refl XS s _ b)); [|exact H].
  intros L rest res. rewrite prepend_nil. exact (lgo_step (fun f => K f L rest)).
Qed.

Lemma sim_straight XS sg' o s s' b ls b' :
  cext s s' ls -> exec_outs b ls = Some (b', o) -> env_ok sg' -> ctx_ok XS sg' b' s' -> untouched XS s s' b b' ->
  sim_at false XS sg' o SN s s' b.
Proof.
  intros E R V C U. exists ls, b'. split; [exact E|]. split; [exact V|]. split; [exact C|]. split; [exact U|]. split; [exact I|].
  intros L rest res H. exact (lruns_straight ls b b' o L rest res R H).
Qed.

Lemma sim_suffix k XS sg' o g s s1 s' b Y :
  sim_at k XS sg' o g s s1 b -> cext s1 s' Y -> (forall b' L rest res, after g b' L rest res -> after g b' L (Y ++ rest) res) ->
  sim_at k XS sg' o g s s' b.
Proof.
  intros (X & b1 & E & V & C & U & Rg & K) EY HY.
  exists (X ++ Y), b1. split; [exact (cext_trans _ _ _ _ _ E EY)|]. split; [exact V|]. split; [exact (ctx_cext _ _ _ _ _ _ EY C)|].
  split; [exact (untouched_gen XS s s s1 s' [] b b1 (cext_refl s) (cx_mono _ _ _ EY) U)|]. split; [exact Rg|].
  intros L rest res H. rewrite <- app_assoc. apply K, HY, H.
Qed.

Lemma steps_seq XS sg m1 sg1 o1 m2 sg' o2 g :
  steps XS sg m1 sg1 o1 SN -> steps XS sg1 m2 sg' o2 g -> steps XS sg (mbind m1 (fun _ => m2)) sg' (o1 ++ o2) g.
Proof.
  intros H1 H2 s u s' b Ht Henv Hc Hfl. mb Ht as u1 s1 T1 T2.
  destruct (H1 s u1 s1 b T1 Henv Hc Hfl) as (X1 & b1 & E1 & V1 & C1 & U1 & _ & K1).
  exact (sim_prefix false false XS sg' o1 o2 g s s1 s' b b1 X1 E1 U1 K1 (H2 s1 u s' b1 T2 V1 C1 (fresh_cext _ _ _ _ E1 Hfl))).
Qed.

Lemma steps_stop XS sg m1 sg' o g (m2 : M (St:=bstate) unit) :
  steps XS sg m1 sg' o g -> g <> SN -> (forall s u s', m2 s = TOk u s' -> emits3 s s') -> steps XS sg (mbind m1 (fun _ => m2)) sg' o g.
Proof.
  intros H1 Hg H2 s u s' b Ht Henv Hc Hfl. mb Ht as u1 s1 T1 T2. destruct (H2 s1 u s' T2) as (Y & EY & CY & _).
  exact (sim_suffix false XS sg' o g s s1 s' b Y (H1 s u1 s1 b T1 Henv Hc Hfl) EY (fun b' L rest res => after_skip g b' L Y rest res Hg (c3_done _ CY))).
Qed.

Lemma all_e3 (l : list stmt) : Forall stmt_e3 l.
Proof. apply Forall_forall. intros st _. apply frag2_e3. Qed.

Lemma go_mono b : forall s u s', go_fix b s = TOk u s' -> (b_for_counter s <= b_for_counter s')%nat.
Proof.
  induction b as [|x r IH]; intros s u s' H; [mr H; apply le_n|].
  cbn [go_fix] in H. mb H as u1 s1 H1 H2. pose proof (for_counter_mono _ _ _ _ H1). pose proof (IH _ _ _ H2). lia.
Qed.

Lemma steps_cons XS sg st sg1 o1 r sg' o2 g :
  steps XS sg (t_stmt bash_conv st) sg1 o1 SN -> steps XS sg1 (go_fix r) sg' o2 g -> steps XS sg (go_fix (st :: r)) sg' (o1 ++ o2) g.
Proof. exact (steps_seq XS sg (t_stmt bash_conv st) sg1 o1 (go_fix r) sg' o2 g). Qed.

Lemma steps_last XS sg st sg' o g r :
  steps XS sg (t_stmt bash_conv st) sg' o g -> g <> SN -> frag2_all r = true -> steps XS sg (go_fix (st :: r)) sg' o g.
Proof. intros H Hg Hf. exact (steps_stop XS sg (t_stmt bash_conv st) sg' o g (go_fix r) H Hg (go_e3 r (all_e3 r) Hf)). Qed.

Lemma steps_nil XS sg : steps XS sg (mret tt) sg [] SN.
Proof.
  intros s u s' b Ht Henv Hc _. mr Ht.
  exact (sim_straight XS sg [] s' s' b [] b (cext_refl s') eq_refl Henv Hc (untouched_refl XS s' s' b)).
Qed.

Lemma ctx_supd XS sg b b' s x v :
  ctx_ok XS sg b s -> In x XS -> sh_get (user_name s x) b' = text v ->
  (forall y, In y XS -> user_name s y <> user_name s x -> sh_get (user_name s y) b' = sh_get (user_name s y) b) ->
  ctx_ok XS (supd sg x v) b' s.
Proof.
  intros [A B C D] Hx Hv H. constructor; [exact A| |exact C|exact D].
  intros y w Hy Hw. unfold supd in Hw. destruct (same_var y x) eqn:Sv.
  - inversion Hw; subst w. rewrite (same_var_name s y x Sv). exact Hv.
  - rewrite H; [exact (B y w Hy Hw)|exact Hy|]. intro Heq. rewrite (D y x Hy Hx Heq) in Sv. discriminate.
Qed.

Lemma untouched_helpers XS s s' b b' :
  (forall n, (forall k, n <> helper_name s k) -> sh_get n b' = sh_get n b) -> untouched XS s s' b b'.
Proof. intros F n _ Hh _ _ _ _. exact (F n Hh). Qed.

Lemma pure_value XS e sg s vs s' b v :
  pure e = true -> t_expr bash_conv e true s = TOk vs s' -> peval sg e = Some v -> env_ok sg -> side XS e -> ctx_ok XS sg b s ->
  exists ls a b', vs = [a] /\ cext s s' ls /\ exec_outs b ls = Some (b', []) /\ ctx_ok XS sg b' s' /\
     (forall n, (forall k, n <> helper_name s k) -> sh_get n b' = sh_get n b) /\ atom_text b' a = text v.
Proof.
  intros Hp Ht Hv Henv Hs Hc. destruct (pure_single e Hp true s vs s' Ht) as [a ->].
  destruct (pure_values XS [e] sg s [a] s' b [v]) as (ls & b' & E & R & C & F & V & _); try assumption.
  - cbn [forallb]. rewrite Hp. reflexivity.
  - cbn [pv_fix]. unfold mbind. rewrite Ht. reflexivity.
  - cbn [pevals]. rewrite Hv. reflexivity.
  - intros e0 [<-|[]]. exact Hs.
  - exists ls, a, b'. cbn [map] in V. injection V as V. split; [reflexivity|]. split; [exact (cext_of_e3 _ _ _ E (e3_expr _ _ _ _ _ Ht))|]. split; [exact R|]. split; [exact C|]. split; [exact F|exact V].
Qed.

Lemma straight_steps XS sg st sg' out : straight XS sg (t_stmt bash_conv st) sg' out -> steps XS sg (t_stmt bash_conv st) sg' out SN.
Proof.
  intros H s u s' b Ht Henv Hc _. pose proof Hc as [Cf Cr Ch Ci].
  destruct (H s u s' b Ht Henv Cf Cr Ch Ci) as (ls & b' & E & R & V & Rep & F).
  apply (sim_straight XS sg' out s s' b ls b' (cext_of_ext _ _ _ E (for_counter_mono st s u s' Ht)) R V).
  - exact (ctx_rep XS sg b s' sg' b' (ctx_ext XS sg b s s' ls E Hc) Rep).
  - intros n Hu Hh _ _ _ _. exact (F n Hu Hh).
Qed.

(* storing a list of parked values into a list of variables (multi-value calls, simultaneous assignment) *)
Lemma stores_step XS : forall xs atoms vals sg s u s' b,
  store_values bash_conv xs atoms s = TOk u s' ->
  (forall x, In x xs -> In x XS) -> map (atom_text b) atoms = map text vals ->
  (forall a x, In a atoms -> In x XS -> a <> ARef (user_name s x)) -> ctx_ok XS sg b s ->
  exists ls b', cext s s' ls /\ exec_outs b ls = Some (b', []) /\ ctx_ok XS (assign_all sg xs vals) b' s' /\
     (forall n, (forall x, In x xs -> n <> user_name s x) -> sh_get n b' = sh_get n b).
Proof.
  induction xs as [|x xr IH]; intros atoms vals sg s u s' b H Hin Hmap Hat Hc.
  - cbn [store_values] in H. mr H. exists [], b. split; [apply cext_refl|]. split; [reflexivity|].
    split; [destruct vals; exact Hc|]. intros; reflexivity.
  - destruct atoms as [|a ar]; [discriminate|]. destruct vals as [|v vr]; [discriminate|].
    cbn [store_values] in H. mb H as u1 s1 H1 H2. mu H1. subst s1. rewrite bash_var_definition in H2.
    change (var_name s (v_name x) (v_global x)) with (user_name s x) in H2.
    set (n := user_name s x) in *. set (s1 := add_line (LAssign n (RAtom a)) s) in *.
    cbn [map] in Hmap. injection Hmap as Ha Hmr.
    set (b1 := sh_set n (atom_text b a) b).
    assert (In x XS) as Hx by (apply Hin; left; reflexivity).
    assert (cext s s1 [LAssign n (RAtom a)]) as E1 by apply cext_line.
    assert (ctx_ok XS (supd sg x v) b1 s1) as Hc1.
    { apply (ctx_cext XS _ _ s _ _ E1), (ctx_supd XS sg b b1 s x v Hc Hx); [unfold b1; rewrite sh_get_set_same; exact Ha|].
      intros y _ Hy. apply sh_get_set_other. exact Hy. }
    assert (map (atom_text b1) ar = map text vr) as Hmr1.
    { rewrite <- Hmr. apply map_ext_in. intros a' Ha'. destruct a' as [t|m]; [reflexivity|]. cbn [atom_text]. unfold b1.
      apply sh_get_set_other. intro Heq. apply (Hat (ARef m) x (or_intror Ha') Hx). rewrite Heq. reflexivity. }
    destruct (IH ar vr (supd sg x v) s1 u s' b1 H2
                 (fun y Hy => Hin y (or_intror Hy)) Hmr1
                 (fun a' y Ha' Hy => eq_ind_r (fun t => a' <> ARef t) (Hat a' y (or_intror Ha') Hy) (user_name_cext _ _ _ y E1)) Hc1)
      as (ls & b' & E2 & R2 & C2 & F2).
    exists ([LAssign n (RAtom a)] ++ ls), b'. split; [exact (cext_trans _ _ _ _ _ E1 E2)|].
    split; [cbn [app exec_outs exec_out exec_line eval_rhs]; fold b1; rewrite R2; reflexivity|]. split; [exact C2|].
    intros m Hm. rewrite F2.
    + unfold b1. apply sh_get_set_other. apply Hm. left. reflexivity.
    + intros y Hy. rewrite (user_name_cext _ _ _ y E1). apply Hm. right. exact Hy.
Qed.

Lemma pevals_length sg : forall es vals, pevals sg es = Some vals -> length vals = length es.
Proof.
  induction es as [|e r IH]; intros vals H; cbn [pevals] in H; [inversion H; reflexivity|].
  destruct (peval sg e); [|discriminate]. destruct (pevals sg r) as [vr|] eqn:E; [|discriminate]. inversion H; subst. cbn [length]. rewrite (IH vr eq_refl). reflexivity.
Qed.

(* simultaneous assignment: every value is parked in _ma<i> before the first store *)
Lemma evals_step XS : forall es i sg s vs s' b vals,
  forallb pure es = true -> eval_values bash_conv true es i s = TOk vs s' -> pevals sg es = Some vals -> env_ok sg ->
  (forall e, In e es -> side XS e) -> ctx_ok XS sg b s -> (forall x j, In x XS -> user_name s x <> ma_var s j) ->
  exists ls b', cext s s' ls /\ exec_outs b ls = Some (b', []) /\ ctx_ok XS sg b' s' /\ vs = refs (ma_var s) i (length es) /\
     map (atom_text b') vs = map text vals /\
     (forall n, (forall k, n <> helper_name s k) -> (forall j, (i <= j)%nat -> n <> ma_var s j) -> sh_get n b' = sh_get n b).
Proof.
  induction es as [|e r IH]; intros i sg s vs s' b vals Hp H Hv Henv Hes Hc Hma.
  - cbn [eval_values] in H. mr H. cbn [pevals] in Hv. inversion Hv; subst vals. exists [], b.
    split; [apply cext_refl|]. split; [reflexivity|]. split; [exact Hc|]. split; [reflexivity|].
    split; [reflexivity|intros; reflexivity].
  - cbn [forallb] in Hp. apply andb_true_iff in Hp as [Hpe Hpr]. cbn [pevals] in Hv.
    destruct (peval sg e) as [v0|] eqn:Ev; [|discriminate]. destruct (pevals sg r) as [vr0|] eqn:Evr; [|discriminate]. inversion Hv; subst vals; clear Hv.
    cbn [eval_values] in H. mb H as ve s1 H1 H2. mb H2 as v s2 H2 H3. mb H3 as vr s3 H3 H4. mr H4.
    mb H2 as u1 s4 H2a H2b. mu H2a. subst s4. inversion H2b; subst v s2; clear H2b.
    destruct (pure_value XS e sg s ve s1 b v0 Hpe H1 Ev Henv (Hes e (or_introl eq_refl)) Hc) as (l1 & a1 & b1 & -> & E1 & R1 & C1 & F1 & V1).
    cbn [first_value] in *.
    change (ARef (var_name (add_line (LAssign (var_name s1 (ma_name i) false) (RAtom a1)) s1) (ma_name i) false)) with (ARef (ma_var s1 i)).
    change (var_name s1 (ma_name i) false) with (ma_var s1 i) in *.
    rewrite (ma_var_cext _ _ _ i E1) in *.
    set (s2 := add_line (LAssign (ma_var s i) (RAtom a1)) s1) in *.
    set (b2 := sh_set (ma_var s i) (atom_text b1 a1) b1).
    assert (cext s s2 (l1 ++ [LAssign (ma_var s i) (RAtom a1)])) as C2 by exact (cext_trans _ _ _ _ _ E1 (cext_line _ s1)).
    assert (ctx_ok XS sg b2 s2) as Hc2.
    { apply (ctx_cext XS _ _ s1 _ _ (cext_line _ s1)), (ctx_frame XS sg b1 b2 s1 C1). intros x Hx. apply sh_get_set_other.
      rewrite (user_name_cext _ _ _ x E1). exact (Hma x i Hx). }
    destruct (IH (S i) sg s2 vr s' b2 vr0 Hpr H3 Evr Henv (fun e0 He0 => Hes e0 (or_intror He0)) Hc2) as (ls2 & b3 & E3 & R3 & C3 & Hvs & V3 & F3).
    { intros x j Hx. rewrite (user_name_cext _ _ _ x C2), (ma_var_cext _ _ _ j C2). exact (Hma x j Hx). }
    exists ((l1 ++ [LAssign (ma_var s i) (RAtom a1)]) ++ ls2), b3.
    split; [exact (cext_trans _ _ _ _ _ C2 E3)|].
    split; [rewrite !exec_outs_app, R1; cbn [exec_outs exec_out exec_line eval_rhs]; fold b2; rewrite R3; reflexivity|].
    split; [exact C3|].
    split; [cbn [length refs]; rewrite Hvs, (refs_ext _ _ (fun k => ma_var_cext _ _ _ k C2)); reflexivity|].
    split.
    + cbn [map atom_text]. rewrite V3, F3.
      * unfold b2. rewrite sh_get_set_same, V1. reflexivity.
      * intro k. rewrite (helper_name_cext _ _ _ k C2). apply ma_not_helper.
      * intros j Hj0 Heq. rewrite (ma_var_cext _ _ _ j C2) in Heq. apply ma_var_inj in Heq. lia.
    + intros n Hh Hm. rewrite F3.
      * unfold b2. rewrite sh_get_set_other; [exact (F1 n Hh)|apply Hm; apply le_n].
      * intro k. rewrite (helper_name_cext _ _ _ k C2). apply Hh.
      * intros j Hj. rewrite (ma_var_cext _ _ _ j C2). apply Hm. lia.
Qed.

Lemma assign_multi_steps XS sg xs es vals :
  forallb pure es = true -> (forall e, In e es -> side XS e) -> (forall x, In x xs -> In x XS) -> (2 <= length xs)%nat ->
  length es = length xs -> pevals sg es = Some vals -> env_ok (assign_all sg xs vals) ->
  steps XS sg (t_stmt bash_conv (SAssign xs es)) (assign_all sg xs vals) [] SN.
Proof.
  intros Hp Hs Hxs H2x Le Hv Henv1 s u sA b H1 Henv Hc Hfl.
  cbn [t_stmt] in H1. unfold assign_values in H1. rewrite Le, Nat.ltb_irrefl in H1.
  replace (firstn (length xs) es) with es in H1 by (rewrite <- Le; symmetry; apply firstn_all).
  assert ((1 <? length xs)%nat = true) as Hm by (apply Nat.ltb_lt; lia). rewrite Hm in H1.
  mb H1 as vs s1 H1 H3.
  destruct (evals_step XS es 0 sg s vs s1 b vals Hp H1 Hv Henv Hs Hc (fun x i => fresh_ma XS s x i Hfl)) as (ls1 & b1 & E1 & R1 & C1 & -> & Hmap & F1).
  destruct (stores_step XS xs (refs (ma_var s) 0 (length es)) vals sg s1 u sA b1 H3 Hxs Hmap) as (ls2 & b2 & E2 & R2 & C2 & F2).
  { intros a x Ha Hx Heq. destruct (refs_in _ _ _ a Ha) as (j & ->). inversion Heq as [Hn].
    rewrite (user_name_cext _ _ _ x E1) in Hn. exact (fresh_ma XS s x j Hfl Hx (eq_sym Hn)). }
  { exact C1. }
  apply (sim_straight XS _ [] s sA b (ls1 ++ ls2) b2).
  - exact (cext_trans _ _ _ _ _ E1 E2).
  - rewrite exec_outs_app, R1, R2. reflexivity.
  - exact Henv1.
  - exact C2.
  - intros n Hu Hh _ _ _ Hma. rewrite F2; [|intros x Hx; rewrite (user_name_cext _ _ _ x E1); exact (Hu x (Hxs x Hx))].
    apply F1; [exact Hh|intros j _; apply Hma].
Qed.

Lemma lruns_call f args e e1 o1 L rest res :
  (exists f0, forall fu, (f0 <= fu)%nat -> call fu f (map (atom_text e) args) e = Some (e1, o1)) -> lruns e1 L rest res ->
  lruns e L (LCall f args :: rest) (prepend o1 res).
Proof.
  intros [f0 Hc] [n Hn]. exists (S (Nat.max n f0)). cbn [lrun]. rewrite (Hc (Nat.max n f0) (Nat.le_max_r _ _)).
  rewrite (lrun_mono call pos call_mono n false e1 L rest res Hn (Nat.max n f0) (Nat.le_max_l _ _)). destruct res; reflexivity.
Qed.

(* arguments, then the call line: the results are in the return registers *)
Lemma call_args XS sg f args s va s1 b vals rvals sg1 o :
  forallb pure args = true -> args_of_fix bash_conv args s = TOk va s1 -> pevals sg args = Some vals -> env_ok sg ->
  (forall e, In e args -> side XS e) -> ctx_ok XS sg b s -> fresh_flags XS s -> scall XS f vals sg rvals sg1 o ->
  exists l1 b2, cext s (add_line (LCall f va) s1) (l1 ++ [LCall f va]) /\ ctx_ok XS sg1 b2 (add_line (LCall f va) s1) /\
     untouched XS s (add_line (LCall f va) s1) b b2 /\ regs (SR rvals) b2 /\
     forall L rest res, lruns b2 L rest res -> lruns b L ((l1 ++ [LCall f va]) ++ rest) (prepend o res).
Proof.
  intros Hp Ha Hv Henv Hes Hc Hfl Hs.
  destruct (pure_values XS args sg s va s1 b vals Hp (args_as_pv _ _ _ _ Hp Ha) Hv Henv Hes Hc) as (l1 & b1 & E1 & R1 & Hc1 & F1 & V1 & _).
  pose proof (cext_of_e3 _ _ _ E1 (args_e3 args s va s1 Ha)) as C1.
  destruct (call_ok XS f vals sg rvals sg1 o b1 s1 Hs Henv Hc1 (fresh_cext _ _ _ _ C1 Hfl)) as (b2 & Hcall & Hc2 & U2 & Hrv).
  exists l1, b2. split; [exact (cext_trans _ _ _ _ _ C1 (cext_line _ s1))|]. split; [exact (ctx_cext _ _ _ _ _ _ (cext_line _ s1) Hc2)|].
  split; [exact (untouched_trans XS s s1 _ l1 b b1 b2 C1 (le_n _) (untouched_helpers XS s s1 b b1 F1) U2)|].
  split; [exact Hrv|].
  intros L rest res Hk. rewrite <- app_assoc, <- (prepend_nil (prepend o res)).
  apply (lruns_straight l1 b b1 [] L _ _ R1). apply (lruns_call f va b1 b2 o L rest res); [rewrite V1; exact Hcall|exact Hk].
Qed.

Lemma call_stmt_steps XS sg f rets args vals rvals sg1 o :
  forallb pure args = true -> (forall e, In e args -> side XS e) -> pevals sg args = Some vals ->
  scall XS f vals sg rvals sg1 o -> env_ok sg1 ->
  steps XS sg (t_stmt bash_conv (SExpr (ECall f rets args))) sg1 o SN.
Proof.
  intros Hp Hs Hv Hsc Henv1 s u sA b H1 Henv Hc Hfl.
  cbn [t_stmt] in H1. mb H1 as vs0 sB H1 H3. mr H3.
  destruct (call_decompose _ _ _ _ _ _ _ H1) as (va & s1 & Ha & Hcv). cbn [andb] in Hcv. rewrite bash_call_unused in Hcv. inversion Hcv; subst vs0 sA; clear Hcv.
  destruct (call_args XS sg f args s va s1 b vals rvals sg1 o Hp Ha Hv Henv Hs Hc Hfl Hsc) as (l1 & b2 & C1 & Hc2 & U2 & _ & Hk1).
  exists (l1 ++ [LCall f va]), b2. split; [exact C1|]. split; [exact Henv1|]. split; [exact Hc2|]. split; [exact U2|]. split; [exact I|exact Hk1].
Qed.

(* results: x, y = f(args) copies the return registers into helpers, then stores the helpers *)
Lemma call_multi_decompose f rets args s vs s' :
  t_expr bash_conv (ECall f rets args) true s = TOk vs s' ->
  exists va s1, args_of_fix bash_conv args s = TOk va s1 /\
     vs = refs (helper_name (add_line (LCall f va) s1)) (b_var_counter s1) (length rets) /\
     cext (add_line (LCall f va) s1) s' (copy_lines (add_line (LCall f va) s1) (b_var_counter s1) 0 (length rets)).
Proof.
  intro H. destruct (call_decompose _ _ _ _ _ _ _ H) as (va & s1 & Ha & Hcv). exists va, s1. split; [exact Ha|].
  assert (cv_func_call bstate atom bash_conv f va rets true s1 =
          (let '(vals, s2, _) := fold_left (fun (acc : list atom * bstate * nat) (_ : vtype) =>
                 let '(vs, st, i) := acc in let '(h, st') := helper_assign (RAtom (ARef (rv_name i))) st in (vs ++ [h], st', S i)) rets ([], add_line (LCall f va) s1, 0%nat) in (vals, s2))) as E by reflexivity.
  destruct (copies_fold (add_line (LCall f va) s1) rets [] _ 0%nat (fun k => eq_refl)) as (s2 & j & Hf & E2).
  rewrite Hf in E. cbn [app] in E. rewrite E in Hcv. cbn [fst andb] in Hcv. rewrite refs_length, Nat.eqb_refl in Hcv. cbn [negb] in Hcv.
  inversion Hcv; subst vs s'. split; [reflexivity|exact E2].
Qed.

Lemma call_assign_steps XS sg xs f rets args vals rvals sg1 o :
  forallb pure args = true -> (forall e, In e args -> side XS e) -> (forall x, In x xs -> In x XS) -> pevals sg args = Some vals ->
  scall XS f vals sg rvals sg1 o -> length rets = length xs -> length rvals = length xs -> env_ok (assign_all sg1 xs rvals) ->
  steps XS sg (t_stmt bash_conv (SAssignCall xs (ECall f rets args))) (assign_all sg1 xs rvals) o SN.
Proof.
  intros Hp Hs Hxs Hv Hsc Lr Lv Henv1 s u sA b H1 Henv Hc Hfl.
  cbn [t_stmt] in H1. unfold assign_call in H1. mb H1 as vs0 sB H1 H3.
  destruct (call_multi_decompose _ _ _ _ _ _ H1) as (va & s1 & Ha & -> & EB).
  set (sc := add_line (LCall f va) s1) in *. set (K := b_var_counter s1) in *.
  rewrite Lr in *. rewrite refs_length, Nat.eqb_refl in H3.
  destruct (call_args XS sg f args s va s1 b vals rvals sg1 o Hp Ha Hv Henv Hs Hc Hfl Hsc) as (l1 & b2 & C1 & Hc2 & U2 & Hrv & Hk1).
  fold sc in C1, Hc2, U2.
  destruct (copies_exec sc (length xs) K 0 b2) as (b3 & R3 & V3 & F3).
  assert (ctx_ok XS sg1 b3 sB) as Hc3.
  { apply (ctx_cext XS _ _ sc _ _ EB), (ctx_frame XS sg1 b2 b3 sc Hc2). intros y Hy. apply F3. intros j _. exact (c_hy _ _ _ _ Hc2 y j Hy). }
  assert (map (atom_text b3) (refs (helper_name sc) K (length xs)) = map text rvals) as Hmap.
  { rewrite <- Lv. apply refs_values. intros j v Hj. rewrite V3; [exact (Hrv j v Hj)|].
    rewrite <- Lv. apply nth_error_Some. rewrite Hj. discriminate. }
  destruct (stores_step XS xs (refs (helper_name sc) K (length xs)) rvals sg1 sB u sA b3 H3 Hxs Hmap) as (ls & b4 & E4 & R4 & C4 & F4).
  { intros a x Ha0 Hx Heq. destruct (refs_in _ _ _ a Ha0) as (j & ->). inversion Heq as [Hn].
    rewrite (user_name_cext _ _ _ x EB) in Hn. exact (c_hy _ _ _ _ Hc2 x j Hx (eq_sym Hn)). }
  { exact Hc3. }
  rewrite <- (app_nil_r o). apply (sim_prefix false false XS _ o [] SN s sc sA b b2 _ C1 U2 Hk1).
  apply (sim_straight XS _ [] sc sA b2 (copy_lines sc K 0 (length xs) ++ ls) b4).
  - exact (cext_trans _ _ _ _ _ EB E4).
  - rewrite exec_outs_app, R3, R4. reflexivity.
  - exact Henv1.
  - exact C4.
  - intros n Hu Hh _ _ _ _. rewrite F4; [|intros x Hx; rewrite (user_name_cext _ _ _ x EB); exact (Hu x (Hxs x Hx))].
    apply F3. intros j _. apply Hh.
Qed.

Lemma call_assign1_steps XS sg x f t args vals rv sg1 o :
  forallb pure args = true -> (forall e, In e args -> side XS e) -> In x XS -> pevals sg args = Some vals ->
  scall XS f vals sg [rv] sg1 o -> env_ok (supd sg1 x rv) ->
  steps XS sg (t_stmt bash_conv (SAssignCall [x] (ECall f [t] args))) (supd sg1 x rv) o SN.
Proof.
  intros Hp Hs Hx Hv Hsc Henv1. apply (call_assign_steps XS sg [x] f [t] args vals [rv] sg1 o Hp Hs); try assumption; try reflexivity.
  intros y [<-|[]]. exact Hx.
Qed.

Lemma return_steps XS sg es rvals :
  forallb pure es = true -> (forall e, In e es -> side XS e) -> pevals sg es = Some rvals ->
  steps XS sg (t_stmt bash_conv (SReturn es)) sg [] (SR rvals).
Proof.
  intros Hp Hes Hv s u s' b Ht Henv Hc Hfl.
  destruct (return_decompose es s u s' Ht) as (vs & s1 & Ha & E2 & _).
  destruct (pure_values XS es sg s vs s1 b rvals Hp (args_as_pv _ _ _ _ Hp Ha) Hv Henv Hes Hc) as (l1 & b1 & X1 & R1 & C1 & F1 & V1 & S1).
  pose proof (cext_of_e3 _ _ _ X1 (args_e3 es s vs s1 Ha)) as E1.
  assert (forall a j, In a vs -> a <> ARef (rv_name j)) as Hno.
  { intros a j Ha0 Heq. rewrite Forall_forall in S1. specialize (S1 a Ha0). subst a. cbn [atom_stable] in S1.
    destruct S1 as [(x & Hx & Hn)|(k & _ & Hn)]; [exact (fresh_rv XS s x j Hfl Hx (eq_sym Hn))|exact (rv_not_helper s j k Hn)]. }
  destruct (rv_exec vs 0 b1 Hno) as (b2 & R2 & V2 & F2).
  exists (l1 ++ rv_lines vs 0 ++ [LReturn]), b2.
  split; [exact (cext_trans _ _ _ _ _ E1 E2)|]. split; [exact Henv|].
  split.
  { apply (ctx_cext XS sg b2 s1 s' _ E2), (ctx_frame XS sg b1 b2 s1 C1). intros x Hx. apply F2. intros j _.
    rewrite (user_name_cext _ _ _ x E1). exact (fresh_rv XS s x j Hfl Hx). }
  split; [intros n _ Hh _ _ Hr _; rewrite F2; [exact (F1 n Hh)|intros j _; apply Hr]|].
  split.
  { intros i v Hi. pose proof (map_nth_error text _ _ Hi) as Hn. rewrite <- V1, nth_error_map in Hn.
    destruct (nth_error vs i) as [a|] eqn:Ea; [|discriminate]. injection Hn as Hav. rewrite <- Hav. exact (V2 i a Ea). }
  intros L rest res H. cbn [after] in H. subst res. rewrite <- !app_assoc, (app_assoc l1).
  apply (lruns_straight (l1 ++ rv_lines vs 0) b b2 [] L _ (b2, [])).
  - rewrite exec_outs_app, R1, R2. reflexivity.
  - exists 1%nat. reflexivity.
Qed.

Lemma jump_sim XS sg g l s b :
  env_ok sg -> ctx_ok XS sg b s -> regs g b -> (forall L rest res, after g b L rest res -> lruns b L (l :: rest) res) ->
  sim_at false XS sg [] g s (add_line l s) b.
Proof.
  intros V C Rg K. exists [l], b. split; [apply cext_line|]. split; [exact V|]. split; [exact (ctx_cext _ _ _ _ _ _ (cext_line l s) C)|].
  split; [apply untouched_refl|]. split; [exact Rg|]. intros L rest res H. rewrite prepend_nil. exact (K L rest res H).
Qed.

Lemma break_steps XS sg : steps XS sg (t_stmt bash_conv SBreak) sg [] SB.
Proof.
  intros s u s' b Ht Henv Hc _. cbn [t_stmt] in Ht. rewrite bash_break in Ht. inversion Ht; subst s'.
  apply (jump_sim XS sg SB LBreak s b Henv Hc I). intros [|t L'] rest res H; [contradiction|]. destruct H as (r' & Hs & [f Hr]).
  exists (S f). cbn [lrun]. rewrite Hs. exact Hr.
Qed.

Lemma continue_steps XS sg : steps XS sg (t_stmt bash_conv SContinue) sg [] SC.
Proof.
  intros s u s' b Ht Henv Hc _. cbn [t_stmt] in Ht. rewrite bash_continue in Ht. inversion Ht; subst s'.
  apply (jump_sim XS sg SC LContinue s b Henv Hc I). intros [|t L'] rest res H; [contradiction|].
  refine (lgo_step _ H). reflexivity.
Qed.

Lemma tb_mono b s u s' : tb b s = TOk u s' -> (b_for_counter s <= b_for_counter s')%nat.
Proof. intro H. destruct b as [|x r]; [unfold tb in H; mu H; subst; apply le_n|exact (go_mono (x :: r) s u s' H)]. Qed.

Lemma sim_at_lines k XS sg' out g s s' b B :
  sim_at k XS sg' out g s s' b -> cext s s' B ->
  exists b', env_ok sg' /\ ctx_ok XS sg' b' s' /\ untouched XS s s' b b' /\ regs g b' /\
             forall L rest res, after g b' L rest res -> lgo k b L (B ++ rest) (prepend out res).
Proof. intros (X & b' & E & H) EB. rewrite (code_same_cext _ _ _ _ (cx_code _ _ _ E) EB) in H. exists b'. exact H. Qed.

(* the body of a branch or of a loop; an empty one is translated to a no-op line *)
Lemma tb_steps XS sg body sgm outm g : steps XS sg (go_fix body) sgm outm g -> steps XS sg (tb body) sgm outm g.
Proof.
  intros Hsim s u s1 b Ht Henv Hc Hfl. destruct body as [|x r]; [|exact (Hsim s u s1 b Ht Henv Hc Hfl)].
  unfold tb in Ht. mu Ht. subst s1. apply (sim_line false false XS sgm outm g LNop); [reflexivity|].
  exact (steps_later Hsim (cext_line LNop s) eq_refl Henv Hc Hfl).
Qed.

(* the end of a conditional, met while seeking: else and its body, fi *)
Lemma else_steps XS sg sgm outm g els s s1 b :
  else_part els s = TOk tt s1 -> steps XS sg (go_fix els) sgm outm g -> env_ok sg -> ctx_ok XS sg b s -> fresh_flags XS s ->
  sim_at true XS sgm outm g s (add_line LFi s1) b.
Proof.
  intros He Hsim Henv Hc Hfl. destruct els as [|x r].
  - mr He. apply (sim_line true false XS sgm outm g LFi); [reflexivity|].
    exact (steps_later Hsim (cext_line LFi s1) eq_refl Henv Hc Hfl).
  - unfold else_part in He. mb He as u1 s2 H1 H2. rewrite bash_else_start in H1. inversion H1; subst; clear H1.
    apply (sim_line true false XS sgm outm g LElse); [reflexivity|].
    apply (sim_suffix false XS sgm outm g _ s1 _ b [LFi]); [|apply cext_line|intros b' L rest res; exact (after_tail g b' L [LFi] rest res tail3_fi)].
    exact (steps_later (tb_steps XS sg (x :: r) sgm outm g Hsim) (cext_line LElse s) H2 Henv Hc Hfl).
Qed.

(* a test met while running (if) or while seeking (elif) *)
Lemma lrun_test seek w v t e L r f :
  seek || is_if w = true -> cond_true e v = Some t ->
  lrun call pos (S f) seek e L (LIf w v :: r) =
  if t then lrun call pos f false e L r else match skip_branch r 0 with Some r' => lrun call pos f true e L r' | None => None end.
Proof. intros Hw Hc. cbn [lrun]. destruct seek; [|cbn [orb] in Hw; rewrite Hw]; rewrite Hc; destruct t; reflexivity. Qed.

(* the chain of else-if branches, met while seeking *)
Definition chain_steps (XS : list var) (sgm : senv) (outm : bytes) (g : sig) (els : list stmt) (elifs : list (expr * list stmt)) : Prop :=
  forall cs bools s s1 s2 sg b,
  bodies_fix elifs cs s = TOk tt s1 -> else_part els s1 = TOk tt s2 ->
  map (atom_text b) cs = map bool_text bools ->
  env_ok sg -> ctx_ok XS sg b s -> fresh_flags XS s ->
  steps XS sg (go_fix (pick bools (map snd elifs) els)) sgm outm g ->
  sim_at true XS sgm outm g s (add_line LFi s2) b.

(* one test with its body, in front of such a chain: the body runs, or the chain is walked *)
Lemma branch_steps XS sgm outm g els elifs seek w :
  frag2_all els = true -> frag2_branches elifs = true -> chain_steps XS sgm outm g els elifs -> seek || is_if w = true ->
  forall body v t cs ts s sm s1 s2 sg b,
  frag2_all body = true -> tb body (add_line (LIf w v) s) = TOk tt sm ->
  bodies_fix elifs cs sm = TOk tt s1 -> else_part els s1 = TOk tt s2 ->
  atom_text b v = bool_text t -> map (atom_text b) cs = map bool_text ts -> env_ok sg -> ctx_ok XS sg b s -> fresh_flags XS s ->
  steps XS sg (go_fix (pick (t :: ts) (body :: map snd elifs) els)) sgm outm g ->
  sim_at seek XS sgm outm g s (add_line LFi s2) b.
Proof.
  intros Hfe Hfr IH Hw body v t cs ts s sm s1 s2 sg b Hfb Hm Hrest He Hv Hvr Henv Hc Hfl Hsim.
  set (se := add_line (LIf w v) s) in *.
  assert (cext s se [LIf w v]) as Ese by apply cext_line.
  assert (Forall (fun cb => Forall stmt_e3 (snd cb)) elifs) as HFr by (apply Forall_forall; intros cb _; apply all_e3).
  destruct (bodies_tail3 elifs HFr Hfr els (all_e3 els) Hfe cs sm s1 s2 Hrest He) as (T & ET & CT & _).
  destruct t; cbn [pick map snd] in Hsim.
  - apply (sim_line seek false XS sgm outm g (LIf w v)).
    { intros f L rest. exact (lrun_test seek w v true b L rest f Hw (cond_of_text b v true Hv)). }
    apply (sim_suffix false XS sgm outm g se sm _ b T); [|exact ET|intros b' L rest res; exact (after_tail g b' L T rest res CT)].
    exact (steps_later (tb_steps XS sg body sgm outm g Hsim) Ese Hm Henv Hc Hfl).
  - (* the body is jumped over as a block; the machine seeks on at the chain *)
    destruct (tb_e3 body (all_e3 body) Hfb _ _ _ Hm) as (B & EB & CB & _).
    pose proof (cext_trans _ _ _ _ _ Ese EB) as EsB.
    destruct (sim_at_lines _ _ _ _ _ _ _ _ T (IH cs ts sm s1 s2 sg b Hrest He Hvr Henv (ctx_cext _ _ _ _ _ _ EsB Hc) (fresh_cext _ _ _ _ EsB Hfl) Hsim) ET)
      as (b' & V & Cc & U & Rg & Hk).
    exists (([LIf w v] ++ B) ++ T), b'. split; [exact (cext_trans _ _ _ _ _ EsB ET)|]. split; [exact V|]. split; [exact Cc|].
    split; [exact (untouched_gen XS s sm (add_line LFi s2) (add_line LFi s2) _ b b' EsB (le_n _) U)|]. split; [exact Rg|].
    intros L rest res Hr. destruct (Hk L rest res Hr) as [f Hf']. exists (S f). rewrite <- !app_assoc. cbn [app].
    rewrite (lrun_test seek w v false b L _ f Hw (cond_of_text b v false Hv)), (proj1 (c3_if _ CB)), (t_here T (t3_if _ CT) rest). exact Hf'.
Qed.

Lemma walk_steps XS sgm outm g els : frag2_all els = true -> forall elifs, frag2_branches elifs = true -> chain_steps XS sgm outm g els elifs.
Proof.
  intros Hfe. induction elifs as [|[c body] r IH]; intros Hf cs bools s s1 s2 sg b Hb He Ht Henv Hc Hfl Hsim.
  - mr Hb. cbn [map] in Hsim. rewrite pick_nil in Hsim. exact (else_steps XS sg sgm outm g els _ _ b He Hsim Henv Hc Hfl).
  - destruct cs as [|v vr]; [discriminate Hb|]. destruct bools as [|t ts]; [discriminate Ht|].
    apply frag2_branches_cons in Hf as (_ & Hfb & Hfr).
    destruct (bodies_step c body r v vr s tt s1 Hb) as (sm & Hm & Hrest).
    cbn [map] in Ht. injection Ht as Hv Hvr.
    exact (branch_steps XS sgm outm g els r true (bs "elif") Hfe Hfr (IH Hfr) eq_refl body v t vr ts s sm s1 s2 sg b
             Hfb Hm Hrest He Hv Hvr Henv Hc Hfl Hsim).
Qed.

Lemma if_steps XS sg c0 b0 elifs els bools sgm outm g :
  frag2 (SIf ((c0, b0) :: elifs) els) = true -> (forall cb, In cb ((c0, b0) :: elifs) -> side XS (fst cb)) ->
  pevals sg (c0 :: map fst elifs) = Some (map VBool bools) ->
  steps XS sg (go_fix (pick bools (b0 :: map snd elifs) els)) sgm outm g ->
  steps XS sg (t_stmt bash_conv (SIf ((c0, b0) :: elifs) els)) sgm outm g.
Proof.
  intros Hfrag Hside Hv IHch s u s1 b H1 Henv Hc Hfl.
  destruct (if_decompose c0 b0 elifs els s u s1 H1) as (a0 & cs & sc & sb0 & sch & sel & Ec & Eb0 & Ech & Eel & ->).
  apply frag2_if in Hfrag as (Hp0 & Hf0 & Hfb & Hfe).
  assert (forall cb, In cb ((c0, b0) :: elifs) -> pure (fst cb) = true) as Hpure
    by (intros cb [<-|Hin]; [exact Hp0|exact (frag2_branches_pure elifs Hfb cb Hin)]).
  destruct (conds_first XS sg _ s _ sc b bools Hpure Hside Ec Hv Henv Hc) as (Lc & bc & ELc & Rc & Hcc & Fc & Vc).
  pose proof (cext_of_e3 _ _ _ ELc (conds_e3 _ _ _ _ Ec)) as CLc.
  destruct bools as [|t0 ts]; [discriminate|]. cbn [map] in Vc. injection Vc as V0 Vts.
  apply (sim_prefix false false XS sgm [] outm g s sc _ b bc Lc CLc (untouched_helpers XS s sc b bc Fc) (fun L rest res => lruns_straight Lc b bc [] L rest res Rc)).
  exact (branch_steps XS sgm outm g els elifs false (bs "if") Hfe Hfb (walk_steps XS sgm outm g els Hfe elifs Hfb) eq_refl
           b0 a0 t0 cs ts sc sb0 sch sel sg bc Hf0 Eb0 Ech Eel V0 Vts Henv Hcc (fresh_cext _ _ _ _ CLc Hfl) IHch).
Qed.

Lemma go_single st s s' : t_stmt bash_conv st s = TOk tt s' -> go_fix [st] s = TOk tt s'.
Proof. intro H. cbn [go_fix]. unfold mbind. rewrite H. reflexivity. Qed.

Lemma go_opt init s si :
  (match init with Some i => t_stmt bash_conv i s | None => TOk tt s end) = TOk tt si -> go_fix (opt_list init) s = TOk tt si.
Proof. destruct init as [i|]; intro H; [exact (go_single i s si H)|exact H]. Qed.

Lemma flag_set_set f v e : flag_set (sh_set f v e) f = match v with [] => false | _ => true end.
Proof. unfold flag_set. rewrite sh_get_set_same. reflexivity. Qed.

Lemma ctx_set_flag XS sg b s k v : fresh_flags XS s -> ctx_ok XS sg b s -> ctx_ok XS sg (sh_set (fname k) v b) s.
Proof. intros Hfl Hc. apply (ctx_frame XS sg b _ s Hc). intros x Hx. apply sh_get_set_other. exact (fresh_flag XS s x k Hfl Hx). Qed.

Lemma untouched_set_flag XS s s' k v b : (b_for_counter s <= k < b_for_counter s')%nat -> untouched XS s s' b (sh_set (fname k) v b).
Proof. intros Hk n _ _ Hf _ _ _. rewrite sh_get_set_other; [reflexivity|apply (Hf k); right; exact Hk]. Qed.

(* a block keeps the flags of the loops around it *)
Lemma flag_untouched XS s s' b b' k :
  untouched XS s s' b b' -> fresh_flags XS s -> (klo <= k < b_for_counter s)%nat -> sh_get (fname k) b' = sh_get (fname k) b.
Proof.
  intros U Hfl Hk. apply U.
  - intros x Hx Heq. exact (fresh_flag XS s x k Hfl Hx (eq_sym Heq)).
  - intro j. apply fname_not_helper.
  - intros j Hj Heq. unfold fname in Heq. apply app_inv_head in Heq. unfold dec_nat in Heq. apply dec_N_inj in Heq. apply Nat2N.inj in Heq. lia.
  - intros c x _ Heq. unfold fname, mangled in Heq. cbn in Heq. inversion Heq.
  - intros i Heq. unfold fname, rv_name in Heq. cbn in Heq. inversion Heq.
  - intro i. apply fname_not_ma.
Qed.

(* the increment part at the top of a round: skipped by its guard in the first round, run in the later ones *)
Lemma round_incr XS first incr sg sg1 o1 si sn b :
  incr_part incr (cv_for_start bstate atom bash_conv si) = TOk tt sn -> simple_opt incr = true ->
  steps XS sg (go_fix (incr_of first incr)) sg1 o1 SN -> env_ok sg ->
  ctx_ok XS sg b (cv_for_start bstate atom bash_conv si) -> fresh_flags XS si ->
  (incr <> None -> flag_set b (fname (b_for_counter si)) = negb first) ->
  exists Rn bF, cext (cv_for_start bstate atom bash_conv si) sn Rn /\ env_ok sg1 /\ ctx_ok XS sg1 bF sn /\ untouched XS si sn b bF /\
                (incr <> None -> flag_set bF (fname (b_for_counter si)) = true) /\
                forall L rest res, lruns bF L rest res -> lruns b L (Rn ++ rest) (prepend o1 res).
Proof.
  intros En Hs Hsim Henv Hc Hfl Hflag.
  set (sf := cv_for_start bstate atom bash_conv si) in *.
  assert (fresh_flags XS sf) as Hflf by exact (fresh_cext _ _ _ _ (for_start_cext si) Hfl).
  destruct incr as [st|].
  - destruct (incr_decompose st si sn En Hs) as (s2 & Bi & H2 & EBi & CBi & -> & _).
    set (f := fname (b_for_counter si)) in *.
    set (sg0 := add_line (LIncrGuard f) sf) in *. set (s3 := add_line LFi s2).
    assert (cext sf sg0 [LIncrGuard f]) as Eg by apply cext_line.
    specialize (Hflag ltac:(discriminate)).
    (* guard, increment, fi *)
    assert (sim_at false XS sg1 o1 SN sf s3 b) as (X & b1 & EX & V & Cc & U & _ & K).
    { destruct first; cbn [incr_of opt_list negb] in *.
      - pose proof (cext_trans _ _ _ _ _ Eg (cext_trans _ _ _ _ _ EBi (cext_line LFi s2))) as E.
        apply (sim_prefix false false XS sg1 [] o1 SN sf s3 s3 b b _ E (untouched_refl XS sf s3 b)).
        + intros L rest res [f2 Hf2]. exists (S f2). rewrite prepend_nil, <- !app_assoc. cbn [app lrun]. rewrite Hflag, (proj2 (c3_if _ CBi)). exact Hf2.
        + exact (steps_later Hsim E eq_refl Henv Hc Hflf).
      - apply (sim_line false false XS sg1 o1 SN (LIncrGuard f)); [intros f2 L rest; cbn [lrun]; rewrite Hflag; reflexivity|].
        apply (sim_suffix false XS sg1 o1 SN sg0 s2 s3 b [LFi]); [|apply cext_line|intros b' L rest res; apply lgo_step; reflexivity].
        exact (steps_later Hsim Eg (go_single st sg0 s2 H2) Henv Hc Hflf). }
    pose proof (cext_line (LFlagSet f) s3) as E3. pose proof (cext_trans _ _ _ _ _ EX E3) as ER.
    exists (X ++ [LFlagSet f]), (sh_set f (bs "1") b1).
    split; [exact ER|]. split; [exact V|].
    split; [apply ctx_set_flag; [exact (fresh_cext _ _ _ _ ER Hflf)|exact (ctx_cext _ _ _ _ _ _ E3 Cc)]|].
    split.
    { apply (untouched_compose XS si _ b b1); [exact (untouched_gen XS si sf s3 _ _ b b1 (for_start_cext si) (le_n _) U)|].
      apply untouched_set_flag. pose proof (cx_mono _ _ _ ER) as M. unfold sf in M. rewrite for_start_counter in M. lia. }
    split; [intros _; apply flag_set_set|].
    intros L rest res Hr. rewrite <- app_assoc. apply (K L). refine (lgo_step _ Hr). reflexivity.
  - unfold incr_part in En. mr En. assert (incr_of first None = []) as Ei by (destruct first; reflexivity). rewrite Ei in Hsim.
    destruct (Hsim sf tt sf b eq_refl Henv Hc Hflf) as (X & b1 & EX & V & Cc & U & _ & Hk).
    exists X, b1. split; [exact EX|]. split; [exact V|]. split; [exact Cc|].
    split; [exact (untouched_gen XS si sf sf sf _ b b1 (for_start_cext si) (le_n _) U)|]. split; [intro H; contradiction|exact Hk].
Qed.

(* the exit test ends the round like a break when the condition is false *)
Lemma test_steps XS sg cond t :
  pure cond = true -> side XS cond -> peval sg cond = Some (VBool t) -> steps XS sg (exit_test cond) sg [] (if t then SN else SB).
Proof.
  intros Hp Hs Hv s u s' b Ht Henv Hc _. unfold exit_test in Ht. mb Ht as vc sc Ec H. mu H. subst s'. rewrite bash_for_condition.
  destruct (pure_value XS cond sg s vc sc b (VBool t) Hp Ec Hv Henv Hs Hc) as (lc & a & bc & -> & CE & RL & Hcc & Fr & Vc).
  cbn [first_value]. rewrite text_bool in Vc. pose proof (cond_of_text bc a t Vc) as Ct.
  apply (sim_prefix false false XS sg [] [] _ s sc _ b bc lc CE (untouched_helpers XS s sc b bc Fr) (fun L rest res => lruns_straight lc b bc [] L rest res RL)).
  apply (jump_sim XS sg _ (LBreakUnless a) sc bc Henv Hcc); [destruct t; exact I|].
  intros L rest res H. destruct t; cbn [after] in H.
  - destruct H as [f Hf]. exists (S f). cbn [lrun]. rewrite Ct. exact Hf.
  - destruct L as [|top L']; [contradiction|]. destruct H as (r' & Hsk & [f Hf]). exists (S f). cbn [lrun]. rewrite Ct, Hsk. exact Hf.
Qed.

(* the translation of one loop, fixed while its rounds are executed *)
Record loopT (cond : expr) (incr : option stmt) (body : list stmt) (si sn sd : bstate) : Prop := mkLoopT {
  lt_incr : incr_part incr (cv_for_start bstate atom bash_conv si) = TOk tt sn;
  lt_rest : round_rest cond body sn = TOk tt sd;
  lt_fi : simple_opt incr = true;
  lt_fc : pure cond = true;
  lt_fb : frag2_all body = true
}.

(* one round, from the top of the loop to the end of its body: R are the lines between while and done; gb says how the
   body ended, SB also that the exit test failed *)
Definition round (XS : list var) (first : bool) (cond : expr) (incr : option stmt) (body : list stmt) (sg sg' : senv) (out : bytes) (gb : sig) : Prop :=
  forall si sn sd b, loopT cond incr body si sn sd -> side XS cond -> env_ok sg ->
  ctx_ok XS sg b (cv_for_start bstate atom bash_conv si) -> fresh_flags XS si ->
  (incr <> None -> flag_set b (fname (b_for_counter si)) = negb first) ->
  exists R b', cext (cv_for_start bstate atom bash_conv si) sd R /\ env_ok sg' /\ ctx_ok XS sg' b' sd /\ untouched XS si sd b b' /\ regs gb b' /\
    (incr <> None -> flag_set b' (fname (b_for_counter si)) = true) /\
    forall top L' rest res, after gb b' (top :: L') rest res -> lruns b (top :: L') (R ++ rest) (prepend out res).

(* the rounds of a loop from some round on: the loop ends normally - the machine goes on behind its done - or with a
   return inside its body *)
Definition simL (XS : list var) (first : bool) (cond : expr) (incr : option stmt) (body : list stmt) (sg sg' : senv) (out : bytes) (g : sig) : Prop :=
  forall si sn sd b, loopT cond incr body si sn sd -> side XS cond -> env_ok sg ->
  ctx_ok XS sg b (cv_for_start bstate atom bash_conv si) -> fresh_flags XS si ->
  (incr <> None -> flag_set b (fname (b_for_counter si)) = negb first) ->
  exists R b', cext (cv_for_start bstate atom bash_conv si) sd R /\ env_ok sg' /\ ctx_ok XS sg' b' sd /\ untouched XS si sd b b' /\ regs g b' /\
    forall L' rest res, after g b' L' rest res ->
                        lruns b ((R ++ [LDone] ++ rest) :: L') (R ++ [LDone] ++ rest) (prepend out res).

(* the increment part, then the rest of the round, which leaves the loop's flag alone *)
Lemma round_steps XS first cond incr body sg sg1 o1 sg2 o2 gb :
  steps XS sg (go_fix (incr_of first incr)) sg1 o1 SN ->
  (pure cond = true -> side XS cond -> frag2_all body = true -> steps XS sg1 (round_rest cond body) sg2 o2 gb) ->
  round XS first cond incr body sg sg2 (o1 ++ o2) gb.
Proof.
  intros Hsim Hrest si sn sd b [En Er Hfi Hfc Hfb] Hside Henv Hc Hfl Hflag.
  destruct (round_incr XS first incr sg sg1 o1 si sn b En Hfi Hsim Henv Hc Hfl Hflag) as (Rn & bF & ERn & V1 & CcF & UF & HfF & HkF).
  pose proof (cext_trans _ _ _ _ _ (for_start_cext si) ERn) as Esn.
  assert (fresh_flags XS sn) as Hfln by exact (fresh_cext _ _ _ _ Esn Hfl).
  destruct (Hrest Hfc Hside Hfb sn tt sd bF Er V1 CcF Hfln) as (X & b3 & EX & V2 & Cc3 & U3 & Rg3 & K3).
  exists (Rn ++ X), b3.
  split; [exact (cext_trans _ _ _ _ _ ERn EX)|]. split; [exact V2|]. split; [exact Cc3|].
  split; [exact (untouched_trans XS si sn sd _ b bF b3 Esn (cx_mono _ _ _ EX) UF U3)|].
  split; [exact Rg3|].
  split.
  { intro Hi. unfold flag_set. rewrite (flag_untouched XS sn sd bF b3 _ U3 Hfln); [exact (HfF Hi)|].
    pose proof (fresh_klo XS _ Hfl). pose proof (cx_mono _ _ _ ERn) as M. rewrite for_start_counter in M. lia. }
  intros top L' rest res Ha. rewrite <- app_assoc, <- prepend_app. exact (HkF _ _ _ (K3 _ rest res Ha)).
Qed.

Lemma round_true XS first cond incr body sg sg1 o1 sg2 o2 gb :
  steps XS sg (go_fix (incr_of first incr)) sg1 o1 SN -> peval sg1 cond = Some (VBool true) ->
  steps XS sg1 (go_fix body) sg2 o2 gb -> round XS first cond incr body sg sg2 (o1 ++ o2) gb.
Proof.
  intros Hsim Hv Hbody. apply (round_steps XS first cond incr body sg sg1 o1 sg2 o2 gb Hsim). intros Hp Hs _.
  exact (steps_seq XS sg1 (exit_test cond) sg1 [] (tb body) sg2 o2 gb (test_steps XS sg1 cond true Hp Hs Hv) (tb_steps XS sg1 body sg2 o2 gb Hbody)).
Qed.

(* the body is jumped over as a block *)
Lemma round_false XS first cond incr body sg sg1 o1 :
  steps XS sg (go_fix (incr_of first incr)) sg1 o1 SN -> peval sg1 cond = Some (VBool false) ->
  round XS first cond incr body sg sg1 o1 SB.
Proof.
  intros Hsim Hv. rewrite <- (app_nil_r o1). apply (round_steps XS first cond incr body sg sg1 o1 sg1 [] SB Hsim). intros Hp Hs Hf.
  apply (steps_stop XS sg1 (exit_test cond) sg1 [] SB (tb body) (test_steps XS sg1 cond false Hp Hs Hv)); [discriminate|].
  exact (tb_e3 body (all_e3 body) Hf).
Qed.

(* what ends the round ends the loop: break lets the machine go on behind done, return ends the run *)
Definition loop_sig (gb : sig) : sig := match gb with SB => SN | _ => gb end.

Lemma simL_stop XS first cond incr body sg sg2 o gb :
  round XS first cond incr body sg sg2 o gb -> gb <> SN -> gb <> SC -> simL XS first cond incr body sg sg2 o (loop_sig gb).
Proof.
  intros Hround Hn Hnc si sn sd b LT Hside Henv Hc Hfl Hflag.
  destruct (Hround si sn sd b LT Hside Henv Hc Hfl Hflag) as (R & b3 & ER & V2 & Cc3 & U3 & Rg3 & _ & Hk).
  exists R, b3. split; [exact ER|]. split; [exact V2|]. split; [exact Cc3|]. split; [exact U3|].
  split; [destruct gb; try contradiction; exact Rg3|].
  (* the stack entry is a second copy of the loop's lines, which a break drops unread *)
  intros L' rest res Hr. apply Hk. destruct gb; try contradiction; [|exact Hr]. exists rest. split; [reflexivity|exact Hr].
Qed.

Lemma simL_next XS first cond incr body sg sg2 o gb sg3 o3 g3 :
  round XS first cond incr body sg sg2 o gb -> (gb = SN \/ gb = SC) ->
  simL XS false cond incr body sg2 sg3 o3 g3 -> simL XS first cond incr body sg sg3 (o ++ o3) g3.
Proof.
  intros Hround Hgb Hnext si sn sd b LT Hside Henv Hc Hfl Hflag.
  destruct (Hround si sn sd b LT Hside Henv Hc Hfl Hflag) as (R & b3 & ER & V2 & Cc3 & U3 & _ & Hf3 & Hk).
  (* the next rounds start from the environment the body left *)
  destruct (Hnext si sn sd b3 LT Hside V2 (ctx_cext_rev _ _ _ _ _ _ ER Cc3) Hfl Hf3) as (R' & b' & ER' & V3 & Cc' & U' & Rg' & Hk').
  rewrite (code_same_cext _ _ _ _ (cx_code _ _ _ ER') ER) in Hk'.
  exists R, b'. split; [exact ER|]. split; [exact V3|]. split; [exact Cc'|].
  split; [exact (untouched_compose XS si sd b b3 b' U3 U')|]. split; [exact Rg'|].
  intros L' rest res Hr. rewrite <- prepend_app. apply Hk.
  pose proof (Hk' L' rest res Hr) as Hloop. destruct Hgb as [-> | ->]; [|exact Hloop].
  refine (lgo_step _ Hloop). reflexivity.
Qed.

(* for init; cond; incr { body }: flag=, while true; do, the rounds, done *)
Lemma for_steps XS sg init cond incr body sg1 o1 sg2 o2 g :
  frag2 (SFor init cond incr body) = true -> side XS cond ->
  steps XS sg (go_fix (opt_list init)) sg1 o1 SN -> simL XS true cond incr body sg1 sg2 o2 g ->
  steps XS sg (t_stmt bash_conv (SFor init cond incr body)) sg2 (o1 ++ o2) g.
Proof.
  intros Hfrag Hside IH1 IH2 s u s1 b H1 Henv Hc Hfl.
  apply frag2_for in Hfrag as (Hfi & Hpc & Hfn & Hfb).
  destruct (for_decompose init cond incr body s u s1 H1) as (si & sn & sd & Ei & En & Er & Ee).
  pose proof (mkLoopT cond incr body si sn sd En Er Hfn Hpc Hfb) as LT.
  destruct (IH1 s tt si b (go_opt init s si Ei) Henv Hc Hfl) as (X0 & b0 & E0 & V1 & C0 & U0 & _ & Hk0).
  assert (fresh_flags XS si) as Hfli by exact (fresh_cext _ _ _ _ E0 Hfl).
  set (f := fname (b_for_counter si)). set (sf := cv_for_start bstate atom bash_conv si) in *.
  assert (ctx_ok XS sg1 (sh_set f [] b0) sf) as Cf0
    by (apply ctx_set_flag; [exact (fresh_cext _ _ _ _ (for_start_cext si) Hfli)|exact (ctx_cext _ _ _ _ _ _ (for_start_cext si) C0)]).
  destruct (IH2 si sn sd (sh_set f [] b0) LT Hside V1 Cf0 Hfli (fun _ => flag_set_set f [] b0)) as (R & b2 & ER & V2 & C2 & U2 & Rg2 & HkL).
  destruct (for_end_cext sd s1 Ee) as [EE _].
  assert (cext si s1 ([LForInit (fname (b_for_counter si)); LWhile] ++ R ++ [LDone])) as EL
    by exact (cext_trans _ _ _ _ _ (for_start_cext si) (cext_trans _ _ _ _ _ ER EE)).
  exists (X0 ++ [LForInit (fname (b_for_counter si)); LWhile] ++ R ++ [LDone]), b2.
  split; [exact (cext_trans _ _ _ _ _ E0 EL)|]. split; [exact V2|]. split; [exact (ctx_cext _ _ _ _ _ _ EE C2)|].
  split.
  { pose proof (cx_mono _ _ _ ER) as MR. unfold sf in MR. rewrite for_start_counter in MR. pose proof (cx_mono _ _ _ EE) as ME.
    apply (untouched_trans XS s si s1 X0 b b0 b2 E0 (cx_mono _ _ _ EL) U0).
    apply (untouched_compose XS si s1 b0 (sh_set f [] b0)); [apply untouched_set_flag; lia|].
    exact (untouched_gen XS si si sd s1 [] _ b2 (cext_refl si) ME U2). }
  split; [exact Rg2|].
  intros L rest res H. rewrite <- !app_assoc, <- prepend_app. apply Hk0.
  destruct (HkL L rest res H) as [fu Hfu]. exists (S (S fu)). exact Hfu.
Qed.

Definition stepsJ (XS : list var) (c : code) (sg sg' : senv) (out : bytes) (g : sig) : Prop :=
  match c with
  | Prog body => steps XS sg (go_fix body) sg' out g
  | Loop first cond incr body => simL XS first cond incr body sg sg' out g
  end.

Theorem J_steps XS c sg sg' out g : J XS c sg sg' out g -> stepsJ XS c sg sg' out g.
Proof.
  induction 1; cbn [stepsJ] in *.
  - (* j_nil *) apply steps_nil.
  - (* j_assign *) eapply (steps_cons _ _ _ _ []); [eapply straight_steps, assign_preserved|]; eassumption.
  - (* j_define *) change (go_fix (SVarDef [x] [e] :: r)) with (go_fix (SAssign [x] [e] :: r)).
    eapply (steps_cons _ _ _ _ []); [eapply straight_steps, assign_preserved|]; eassumption.
  - (* j_assign_multi *) eapply (steps_cons _ _ _ _ []); [eapply assign_multi_steps|]; eassumption.
  - (* j_define_multi *) change (go_fix (SVarDef xs es :: r)) with (go_fix (SAssign xs es :: r)).
    eapply (steps_cons _ _ _ _ []); [eapply assign_multi_steps|]; eassumption.
  - (* j_print *) rewrite app_assoc. eapply steps_cons; [eapply straight_steps, print_preserved|]; eassumption.
  - (* j_call_assign *) eapply steps_cons; [eapply call_assign1_steps|]; eassumption.
  - (* j_call_define *) change (go_fix (SVarDefCall [x] (ECall f [t] args) :: r)) with (go_fix (SAssignCall [x] (ECall f [t] args) :: r)).
    eapply steps_cons; [eapply call_assign1_steps|]; eassumption.
  - (* j_call_assign_multi *) eapply steps_cons; [eapply call_assign_steps|]; eassumption.
  - (* j_call_define_multi *) change (go_fix (SVarDefCall xs (ECall f rets args) :: r)) with (go_fix (SAssignCall xs (ECall f rets args) :: r)).
    eapply steps_cons; [eapply call_assign_steps|]; eassumption.
  - (* j_call_stmt *) eapply steps_cons; [eapply call_stmt_steps|]; eassumption.
  - (* j_return *) eapply steps_last; [eapply return_steps; eassumption|discriminate|assumption].
  - (* j_break *) eapply steps_last; [apply break_steps|discriminate|assumption].
  - (* j_continue *) eapply steps_last; [apply continue_steps|discriminate|assumption].
  - (* j_if_next *) eapply steps_cons; [eapply if_steps|]; eassumption.
  - (* j_if_stop *) eapply steps_last; [eapply if_steps; eassumption|assumption|assumption].
  - (* j_for *) rewrite app_assoc. eapply steps_cons; [eapply for_steps|]; eassumption.
  - (* j_for_return *) eapply steps_last; [eapply for_steps; eassumption|discriminate|assumption].
  - (* l_exit *) eapply (simL_stop _ _ _ _ _ _ _ _ SB); [eapply round_false; eassumption|discriminate|discriminate].
  - (* l_break *) eapply (simL_stop _ _ _ _ _ _ _ _ SB); [eapply round_true; eassumption|discriminate|discriminate].
  - (* l_next *) rewrite app_assoc. eapply simL_next; [eapply round_true; eassumption|eassumption|eassumption].
  - (* l_return *) eapply (simL_stop _ _ _ _ _ _ _ _ (SR rv)); [eapply round_true; eassumption|discriminate|discriminate].
Qed.

Lemma lruns_nil b : lruns b [] [] (b, []).
Proof. exists 1%nat. reflexivity. Qed.

Lemma run_to_end b b' X out :
  (forall rest res, lruns b' [] rest res -> lruns b [] (X ++ rest) (prepend out res)) -> lruns b [] X (b', out).
Proof.
  intro Hk. specialize (Hk [] (b', []) (lruns_nil b')). rewrite app_nil_r in Hk.
  rewrite prepend_end in Hk. exact Hk.
Qed.

Theorem loops_preserved : forall XS sg body sg' out s u s' b,
  J XS (Prog body) sg sg' out SN -> go_fix body s = TOk u s' -> frag2_all body = true -> env_ok sg -> ctx_ok XS sg b s -> fresh_flags XS s ->
  exists X b', b_code s' = b_code s ++ X /\ lruns b [] X (b', out) /\ represents sg' b' s' XS.
Proof.
  intros XS sg body sg' out s u s' b H Ht Hf Henv Hc Hfl.
  destruct (J_steps XS (Prog body) sg sg' out SN H s u s' b Ht Henv Hc Hfl) as (X & b' & Ex & _ & Cc & _ & _ & Hk).
  exists X, b'. split; [exact (cx_code _ _ _ Ex)|]. split; [exact (run_to_end b b' X out (Hk []))|exact (c_rep _ _ _ _ Cc)].
Qed.
End WithCalls.
