(* Straight-line statements of the Bash target: an assignment (or definition) of one variable from a call-free
   scalar expression, and print of such expressions, do in the shell what they do in the source -- the shell
   environment keeps representing the source environment, and what is printed is the source text of the values,
   whatever bytes the string values contain (the printed line is read with the model of double-quoted text of
   Sem/Words.v). *)
From Verif Require Import Base.Bytestr Base.DecFacts Front.Ast Back.BashLines Back.Transpile Back.BashConv
  Back.BashFacts Sem.Src Sem.BashSem Sem.ExprPreserve Sem.Words.
From Coq Require Import ZArith.
Open Scope N_scope.

Definition exec_out (e : shenv) (l : line) : option (shenv * bytes) :=
  match l with
  | LEcho t => match dq e t with Some w => Some (e, w ++ [10]) | None => None end
  | _ => match exec_line e l with Some e' => Some (e', []) | None => None end
  end.

Fixpoint exec_outs (e : shenv) (ls : list line) : option (shenv * bytes) :=
  match ls with
  | [] => Some (e, [])
  | l :: r => match exec_out e l with
              | Some (e1, o1) => match exec_outs e1 r with Some (e2, o2) => Some (e2, o1 ++ o2) | None => None end
              | None => None
              end
  end.

Lemma exec_outs_app e a b :
  exec_outs e (a ++ b) = match exec_outs e a with
                         | Some (e1, o1) => match exec_outs e1 b with Some (e2, o2) => Some (e2, o1 ++ o2) | None => None end
                         | None => None
                         end.
Proof.
  revert e. induction a as [|l a IH]; intro e; cbn [app exec_outs].
  - destruct (exec_outs e b) as [[e2 o2]|]; reflexivity.
  - destruct (exec_out e l) as [[e1 o1]|]; [|reflexivity]. rewrite IH.
    destruct (exec_outs e1 a) as [[e2 o2]|]; [|reflexivity]. destruct (exec_outs e2 b) as [[e3 o3]|]; [|reflexivity].
    rewrite app_assoc. reflexivity.
Qed.

Definition no_echo (l : line) : bool := match l with LEcho _ => false | _ => true end.

Lemma exec_outs_silent ls : forall e e', forallb no_echo ls = true -> exec_lines e ls = Some e' -> exec_outs e ls = Some (e', []).
Proof.
  induction ls as [|l r IH]; intros e e' Hn H; cbn [exec_lines exec_outs] in *; [inversion H; reflexivity|].
  simpl in Hn. apply andb_true_iff in Hn as [Hl Hr]. destruct (exec_line e l) as [e1|] eqn:E; [|discriminate].
  assert (exec_out e l = Some (e1, [])) as Eo by (destruct l; try discriminate; cbn [exec_out]; rewrite E; reflexivity).
  rewrite Eo, (IH e1 e' Hr H). reflexivity.
Qed.

(* exec_lines only succeeds on assignments, which are silent *)
Lemma exec_lines_no_echo ls : forall e e', exec_lines e ls = Some e' -> forallb no_echo ls = true.
Proof.
  induction ls as [|l r IH]; intros e e' H; [reflexivity|]. cbn [exec_lines] in H.
  destruct (exec_line e l) as [e1|] eqn:E; [|discriminate]. cbn [forallb]. rewrite (IH e1 e' H).
  destruct l; try discriminate; reflexivity.
Qed.

(* the variables of a program are its var records: name, scope and type (one name in one scope has one type) *)
Definition same_var (y x : var) : bool := beq (v_name y) (v_name x) && Bool.eqb (v_global y) (v_global x) && vtype_eqb (v_type y) (v_type x).
Definition supd (sg : senv) (x : var) (v : value) : senv := fun y => if same_var y x then Some v else sg y.

Definition names_inj (s : bstate) (xs : list var) : Prop :=
  forall y z, In y xs -> In z xs -> user_name s y = user_name s z -> same_var y z = true.

Lemma dtype_eqb_eq a b : dtype_eqb a b = true -> a = b.
Proof. destruct a, b; try discriminate; reflexivity. Qed.

Lemma env_ok_supd sg x v : env_ok sg -> vkind v = dt (v_type x) -> is_slice (v_type x) = false -> in_range v -> env_ok (supd sg x v).
Proof.
  intros He Hk Hs Hr y w Hw. unfold supd in Hw. destruct (same_var y x) eqn:Sv; [|exact (He y w Hw)].
  inversion Hw; subst w. unfold same_var in Sv. apply andb_true_iff in Sv as [_ Ht]. unfold vtype_eqb in Ht.
  apply andb_true_iff in Ht as [Hd Hsl]. apply dtype_eqb_eq in Hd. apply Bool.eqb_prop in Hsl. rewrite Hd, Hsl. repeat split; assumption.
Qed.

Lemma same_var_name s y x : same_var y x = true -> user_name s y = user_name s x.
Proof.
  unfold same_var, user_name. intro H. apply andb_true_iff in H as [H _]. apply andb_true_iff in H as [H1 H2]. apply beq_eq in H1. apply Bool.eqb_prop in H2. rewrite H1, H2. reflexivity.
Qed.

Lemma names_inj_ext s s' ls xs : ext s s' ls -> names_inj s xs -> names_inj s' xs.
Proof. intros E H y z Hy Hz. rewrite (user_name_ext _ _ _ y E), (user_name_ext _ _ _ z E). exact (H y z Hy Hz). Qed.

Fixpoint lits_neutral (e : expr) : bool :=
  match e with
  | EStr t => neutral t
  | EGroup x | EUnary x | EItoa x | ELen x => lits_neutral x
  | EBinary l _ r | ECompare l _ r | ELogical l _ r => lits_neutral l && lits_neutral r
  | _ => true
  end.

Definition var_fine (s : bstate) (x : var) : Prop := atom_ok (ARef (user_name s x)) = true.

Lemma var_fine_ext s s' ls x : ext s s' ls -> var_fine s x -> var_fine s' x.
Proof. intros E H. unfold var_fine. rewrite (user_name_ext _ _ _ x E). exact H. Qed.

Definition side (XS : list var) (e : expr) : Prop := lits_ok e /\ lits_neutral e = true /\ incl (vars_of e) XS.

Lemma digit_neutral c : is_digit c = true -> negb (dq_special c) = true.
Proof.
  unfold is_digit, dq_special. intro H. apply andb_true_iff in H as [H1 H2]. apply N.leb_le in H1. apply N.leb_le in H2.
  apply negb_true_iff. repeat (apply orb_false_iff; split); apply N.eqb_neq; lia.
Qed.

Lemma digit_word c : is_digit c = true -> is_word c = true.
Proof. intro H. unfold is_word. rewrite H. apply orb_true_r. Qed.

Lemma digits_word d : forallb is_digit d = true -> forallb is_word d = true.
Proof. apply forallb_impl, digit_word. Qed.

Lemma dec_Z_neutral z : neutral (dec_Z z) = true.
Proof.
  destruct z as [|p|p]; cbn [dec_Z]; [reflexivity| |unfold neutral; cbn [forallb]; change (negb (dq_special 45)) with true; cbn [andb]];
    exact (forallb_impl _ _ _ digit_neutral (dec_N_digits _)).
Qed.

Lemma helper_fine s k : atom_ok (ARef (helper_name s k)) = true.
Proof.
  assert (forall n, forallb is_word (dec_nat n) = true) as W by (intro n; unfold dec_nat; apply digits_word, dec_N_digits).
  unfold helper_name, var_name, atom_ok. destruct ((0 <? b_funcs s)%nat && negb false);
    (apply andb_true_iff; split; [rewrite !forallb_app, !W; reflexivity|reflexivity]).
Qed.

Lemma helper_assign_atom mk s a s' : helper_assign mk s = (a, s') -> atom_ok a = true.
Proof.
  intro H. destruct (helper_assign_spec _ _ _ _ H) as [Ha _]. subst a. apply helper_fine.
Qed.

(* the conclusion of pure_atom for an atom that is well formed whatever the literals and variables are *)
Lemma one_atom a (A B : Prop) : atom_ok a = true -> exists a0, [a] = [a0] /\ (A -> B -> atom_ok a0 = true).
Proof. intro H. exists a. split; [reflexivity|]. intros _ _. exact H. Qed.

Lemma pure_atom e : pure e = true -> forall used s vs s', t_expr bash_conv e used s = TOk vs s' ->
  exists a, vs = [a] /\ (lits_neutral e = true -> (forall x, In x (vars_of e) -> var_fine s x) -> atom_ok a = true).
Proof.
  intro Hp. pattern e. revert e Hp. apply pure_ind;
    [ intros b0 | intros z | intros str0 | intros x Hp IHe | intros e1 op e2 Hp1 Hp2 IHe1 IHe2 | intros e1 op e2 Hp1 Hp2 IHe1 IHe2
    | intros e1 op e2 Hp1 Hp2 IHe1 IHe2 | intros v0 | intros x Hp IHe | intros x Hp Hstr IHe | intros x Hp IHe ];
    intros used s vs s' Ht; cbn [t_expr] in Ht; cbn [lits_neutral vars_of].
  - mr Ht. apply one_atom. destruct b0; reflexivity.
  - mr Ht. apply one_atom, dec_Z_neutral.
  - mb Ht as a s1 H1 H2. mr H2. ml H1. unfold bash_conv in H1. cbn [cv_string] in H1. inversion H1; subst.
    eexists. split; [reflexivity|]. intros Hl _. exact Hl.
  - mb Ht as vx s1 H1 H2. mb H2 as a s2 H2 H3. mr H3. ml H2. exact (one_atom _ _ _ (helper_assign_atom _ _ _ _ H2)).
  - mb Ht as vl s1 H1 H2. mb H2 as vr s2 H2 H3. mb H3 as a s3 H3 H4. mr H4. apply one_atom. unfold bash_conv in H3. cbn [cv_binary] in H3.
    destruct (is_slice (type_of e1)); [discriminate|]. destruct (dt (type_of e1)); try discriminate; [|destruct op; try discriminate];
      ml H3; exact (helper_assign_atom _ _ _ _ H3).
  - mb Ht as vl s1 H1 H2. mb H2 as vr s2 H2 H3. mb H3 as a s3 H3 H4. mr H4. apply one_atom. unfold bash_conv in H3. cbn [cv_comparison] in H3.
    destruct (cmp_text (type_of e1) op); [|discriminate]. ml H3. exact (helper_assign_atom _ _ _ _ H3).
  - mb Ht as vl s1 H1 H2. mb H2 as vr s2 H2 H3. mb H3 as a s3 H3 H4. mr H4. ml H3. exact (one_atom _ _ _ (helper_assign_atom _ _ _ _ H3)).
  - inversion Ht; subst. eexists. split; [reflexivity|]. intros _ Hv. exact (Hv v0 (or_introl eq_refl)).
  - exact (IHe used s vs s' Ht).
  - mb Ht as vx s1 H1 H2. rewrite Hstr in H2. mb H2 as a s2 H2 H3. mr H3. ml H2.
    destruct (string_len_spec _ _ _ _ H2) as (-> & _). apply one_atom, helper_fine.
  - mb Ht as vx s1 H1 H2. mr H2. destruct (IHe true s vx s' H1) as (a & -> & Ha). exists a. split; [reflexivity|exact Ha].
Qed.

Lemma pure_single e : pure e = true -> forall used s vs s', t_expr bash_conv e used s = TOk vs s' -> exists a, vs = [a].
Proof. intros Hp used s vs s' Ht. destruct (pure_atom e Hp used s vs s' Ht) as (a & E & _). exists a. exact E. Qed.

Fixpoint inter (l : list atom) : list atom :=
  match l with
  | [] => []
  | [a] => [a]
  | a :: r => a :: ALit [32] :: inter r
  end.

(* for the rendering and for the value alike: a literal blank is a blank *)
Lemma inter_map (f : atom -> bytes) l : f (ALit [32]) = [32] -> concat (map f (inter l)) = join [32] (map f l).
Proof.
  intro Hf. induction l as [|a r IH]; [reflexivity|]. destruct r as [|a2 r2]; [cbn; apply app_nil_r|].
  change (inter (a :: a2 :: r2)) with (a :: ALit [32] :: inter (a2 :: r2)). cbn [map concat]. rewrite Hf, IH. reflexivity.
Qed.

Lemma inter_ok l : forallb atom_ok l = true -> forallb atom_ok (inter l) = true.
Proof.
  induction l as [|a r IH]; intro H; [reflexivity|]. simpl in H. apply andb_true_iff in H as [Ha Hr].
  destruct r as [|a2 r2]; [cbn [inter forallb]; rewrite Ha; reflexivity|].
  change (inter (a :: a2 :: r2)) with (a :: ALit [32] :: inter (a2 :: r2)). cbn [forallb]. rewrite Ha, (IH Hr). reflexivity.
Qed.

Lemma dq_join e l : forallb atom_ok l = true -> dq e (join [32] (map render_atom l)) = Some (join [32] (map (atom_text e) l)).
Proof. intro H. rewrite <- (inter_map render_atom l eq_refl), <- (inter_map (atom_text e) l eq_refl). apply dq_word, inter_ok, H. Qed.

Fixpoint pevals (sg : senv) (es : list expr) : option (list value) :=
  match es with
  | [] => Some []
  | e :: r => match peval sg e, pevals sg r with Some v, Some vr => Some (v :: vr) | _, _ => None end
  end.

Definition pv_fix :=
  fix pv (l : list expr) : M (St:=bstate) (list atom) :=
    match l with
    | [] => mret []
    | e :: r => mbind (t_expr bash_conv e true) (fun ve => mbind (pv r) (fun vr => mret (ve ++ vr)))
    end.

Lemma print_values : forall es sg s vs s' b vals XS,
  forallb pure es = true -> pv_fix es s = TOk vs s' -> pevals sg es = Some vals -> env_ok sg ->
  (forall e, In e es -> side XS e) ->
  (forall x, In x XS -> var_fine s x) ->
  represents sg b s XS -> hygienic s XS ->
  exists ls b',
    ext s s' ls /\ (b_var_counter s <= b_var_counter s')%nat /\ exec_lines b ls = Some b' /\
    map (atom_text b') vs = map text vals /\ helpers_only s (b_var_counter s) (b_var_counter s') b b' /\
    Forall (atom_stable s XS (b_var_counter s')) vs /\ forallb atom_ok vs = true.
Proof.
  induction es as [|e r IH]; intros sg s vs s' b vals XS Hp Ht Hv Henv Hes Hfine Hrep Hhy.
  - cbn [pv_fix] in Ht. mr Ht. cbn [pevals] in Hv. inversion Hv; subst. exists [], b.
    split; [apply ext_refl|]. split; [apply le_n|]. split; [reflexivity|]. split; [reflexivity|].
    split; [apply helpers_refl|]. split; [constructor|reflexivity].
  - cbn [pv_fix] in Ht. mb Ht as ve s1 H1 H2. mb H2 as vr s2 H2 H3. mr H3.
    simpl in Hp. apply andb_true_iff in Hp as [Hpe Hpr]. cbn [pevals] in Hv.
    destruct (peval sg e) as [v|] eqn:Ev; [|discriminate]. destruct (pevals sg r) as [vr0|] eqn:Evr; [|discriminate]. inversion Hv; subst vals.
    destruct (Hes e (or_introl eq_refl)) as [Hl [Hn Hi]].
    pose proof (expr_preserve e Hpe sg true s ve s1 b v H1 Ev Henv Hl (represents_incl _ _ _ _ _ Hrep Hi) (hygienic_incl _ _ _ Hhy Hi))
      as [l1 a1 b1 O1 E1 M1 R1 V1 F1 S1].
    destruct (pure_atom e Hpe true s ve s1 H1) as (a & Ea & Hok1). subst ve. injection Ea as <-.
    specialize (Hok1 Hn (fun x Hx => Hfine x (Hi x Hx))). apply (stable_vars _ _ _ _ _ S1) in Hi.
    destruct (IH sg s1 vr s' b1 vr0 XS Hpr H2 Evr Henv (fun e0 H0 => Hes e0 (or_intror H0)) (fun x Hx => var_fine_ext _ _ _ x E1 (Hfine x Hx))
                (represents_ext _ _ _ _ _ _ E1 (represents_frame _ _ _ _ _ _ _ Hrep Hhy F1)) (hygienic_ext _ _ _ _ E1 Hhy))
      as (l2 & b2 & E2 & M2 & R2 & V2 & F2 & S2 & Hok2).
    exists (l1 ++ l2), b2.
    split; [eapply ext_trans; eassumption|]. split; [lia|]. split; [rewrite exec_lines_app, R1; exact R2|].
    split.
    { cbn [app map]. f_equal; [|exact V2]. rewrite <- V1. exact (stable_text _ _ _ _ _ _ _ _ _ Hi Hhy E1 F2). }
    split; [exact (helpers_trans _ _ _ _ _ _ _ _ _ E1 (conj M1 M2) F1 F2)|].
    split.
    { cbn [app]. constructor.
      - eapply stable_weaken; [exact Hi|lia].
      - exact (Forall_impl _ (fun a => stable_ext _ _ _ _ _ a E1) S2). }
    cbn [app forallb]. rewrite Hok1, Hok2. reflexivity.
Qed.

Definition straight (XS : list var) (sg : senv) (m : M (St:=bstate) unit) (sg' : senv) (out : bytes) : Prop :=
  forall s u s' b, m s = TOk u s' -> env_ok sg ->
  (forall x, In x XS -> var_fine s x) -> represents sg b s XS -> hygienic s XS -> names_inj s XS ->
  exists ls b', ext s s' ls /\ exec_outs b ls = Some (b', out) /\ env_ok sg' /\ represents sg' b' s' XS /\
    forall n, (forall x, In x XS -> n <> user_name s x) -> (forall k, n <> helper_name s k) -> sh_get n b' = sh_get n b.

Lemma straight_nil XS sg : straight XS sg (mret tt) sg [].
Proof.
  intros s u s' b Ht Henv _ Hrep _ _. mr Ht. exists [], b. split; [apply ext_refl|]. split; [reflexivity|]. split; [assumption|]. split; [assumption|].
  intros n _ _. reflexivity.
Qed.

Lemma straight_seq XS sg m1 sg1 o1 m2 sg' o2 :
  straight XS sg m1 sg1 o1 -> straight XS sg1 m2 sg' o2 -> straight XS sg (mbind m1 (fun _ => m2)) sg' (o1 ++ o2).
Proof.
  intros H1 H2 s u s' b Ht Henv Hf Hr Hh Hi. mb Ht as u1 s1 T1 T2.
  destruct (H1 s u1 s1 b T1 Henv Hf Hr Hh Hi) as (l1 & b1 & E1 & R1 & V1 & Rep1 & F1).
  destruct (H2 s1 u s' b1 T2 V1 (fun x Hx => var_fine_ext _ _ _ x E1 (Hf x Hx)) Rep1 (hygienic_ext _ _ _ _ E1 Hh) (names_inj_ext _ _ _ _ E1 Hi))
    as (l2 & b2 & E2 & R2 & V2 & Rep2 & F2).
  exists (l1 ++ l2), b2. split; [exact (ext_trans _ _ _ _ _ E1 E2)|]. split; [rewrite exec_outs_app, R1, R2; reflexivity|].
  split; [exact V2|]. split; [exact Rep2|].
  intros n Hu Hk. rewrite F2; [exact (F1 n Hu Hk)| |].
  - intros x Hx. rewrite (user_name_ext _ _ _ x E1). exact (Hu x Hx).
  - intro k. rewrite (helper_name_ext _ _ _ _ E1). exact (Hk k).
Qed.

Theorem assign_preserved XS sg x e v :
  pure e = true -> side XS e -> In x XS -> peval sg e = Some v -> env_ok (supd sg x v) ->
  straight XS sg (t_stmt bash_conv (SAssign [x] [e])) (supd sg x v) [].
Proof.
  intros Hp (Hl & _ & Hin) Hx Hv Henv' s u s' b Ht Henv _ Hrep Hhy Hinj.
  cbn [t_stmt] in Ht. unfold assign_values in Ht. cbn [length Nat.ltb Nat.leb firstn eval_values] in Ht.
  mb Ht as vs s1 H1 H2.
  mb H1 as ve s2 H1 H3. mb H3 as v0 s3 H3 H4. mr H3. mb H4 as vr s4 H4 H5. mr H4. mr H5.
  cbn [store_values] in H2. mb H2 as u1 s5 H2 H6. mu H2. mr H6.
  pose proof (expr_preserve e Hp sg true s ve s1 b v H1 Hv Henv Hl (represents_incl _ _ _ _ _ Hrep Hin) (hygienic_incl _ _ _ Hhy Hin))
    as [l1 a1 b1 O1 E1 M1 R1 V1 F1 S1].
  subst ve. cbn [first_value] in *. rewrite bash_var_definition.
  set (n := var_name s1 (v_name x) (v_global x)).
  assert (n = user_name s x) as Hn by (unfold n; exact (user_name_ext _ _ _ x E1)).
  pose proof (ext_trans _ _ _ _ _ E1 (ext_add_line (LAssign n (RAtom a1)) s1)) as E2.
  exists (l1 ++ [LAssign n (RAtom a1)]), (sh_set n (atom_text b1 a1) b1).
  split; [exact E2|]. split; [|split; [exact Henv'|split]].
  - apply exec_outs_silent.
    + rewrite forallb_app, (exec_lines_no_echo l1 b b1 R1). reflexivity.
    + rewrite exec_lines_app, R1. reflexivity.
  - apply (represents_ext _ _ _ _ _ _ E2). intros y w Hy Hw. unfold supd in Hw. destruct (same_var y x) eqn:Sv.
    + inversion Hw; subst w. rewrite (same_var_name s y x Sv), <- Hn, sh_get_set_same. exact V1.
    + rewrite sh_get_set_other.
      * rewrite F1; [exact (Hrep y w Hy Hw)|]. intros k _ Heq. exact (Hhy y k Hy Heq).
      * rewrite Hn. intro Heq. rewrite (Hinj y x Hy Hx Heq) in Sv. discriminate.
  - intros m Hu Hk. rewrite sh_get_set_other; [|rewrite Hn; exact (Hu x Hx)]. apply F1. intros k _. exact (Hk k).
Qed.

Theorem print_preserved XS sg es vals :
  forallb pure es = true -> (forall e, In e es -> side XS e) -> pevals sg es = Some vals ->
  straight XS sg (t_stmt bash_conv (SPrint es)) sg (join [32] (map text vals) ++ [10]).
Proof.
  intros Hp Hes Hv s u s' b Ht Henv Hfine Hrep Hhy _.
  cbn [t_stmt] in Ht. mb Ht as vs s1 H1 H2. mu H2. subst s'.
  destruct (print_values es sg s vs s1 b vals XS Hp H1 Hv Henv Hes Hfine Hrep Hhy) as (l1 & b1 & E1 & M1 & R1 & V1 & F1 & S1 & Hok).
  rewrite bash_print.
  pose proof (ext_trans _ _ _ _ _ E1 (ext_add_line (LEcho (join [32] (map render_atom vs))) s1)) as E2.
  exists (l1 ++ [LEcho (join [32] (map render_atom vs))]), b1.
  split; [exact E2|]. split; [|split; [exact Henv|split]].
  - rewrite exec_outs_app, (exec_outs_silent l1 b b1 (exec_lines_no_echo l1 b b1 R1) R1).
    cbn [exec_outs exec_out]. rewrite (dq_join b1 vs Hok), V1. cbn [app]. rewrite app_nil_r. reflexivity.
  - exact (represents_ext _ _ _ _ _ _ E2 (represents_frame _ _ _ _ _ _ _ Hrep Hhy F1)).
  - intros m _ Hk. apply F1. intros k _. exact (Hk k).
Qed.

Inductive sl (XS : list var) : senv -> list stmt -> senv -> bytes -> Prop :=
| sl_nil sg : sl XS sg [] sg []
| sl_assign sg x e v r sg' out :
    pure e = true -> side XS e -> In x XS -> peval sg e = Some v -> env_ok (supd sg x v) ->
    sl XS (supd sg x v) r sg' out -> sl XS sg (SAssign [x] [e] :: r) sg' out
| sl_define sg x e v r sg' out :
    pure e = true -> side XS e -> In x XS -> peval sg e = Some v -> env_ok (supd sg x v) ->
    sl XS (supd sg x v) r sg' out -> sl XS sg (SVarDef [x] [e] :: r) sg' out
| sl_print sg es vals r sg' out :
    forallb pure es = true -> (forall e, In e es -> side XS e) -> pevals sg es = Some vals ->
    sl XS sg r sg' out -> sl XS sg (SPrint es :: r) sg' (join [32] (map text vals) ++ [10] ++ out).

Definition go_fix :=
  fix go (b : list stmt) : M (St:=bstate) unit :=
    match b with [] => mret tt | x :: r => mbind (t_stmt bash_conv x) (fun _ => go r) end.

Lemma sl_straight XS sg body sg' out : sl XS sg body sg' out -> straight XS sg (go_fix body) sg' out.
Proof.
  induction 1 as [sg|sg x e v r sg' out Hp Hs Hx Hv Henv' _ IH|sg x e v r sg' out Hp Hs Hx Hv Henv' _ IH|sg es vals r sg' out Hp Hs Hv _ IH].
  - apply straight_nil.
  - exact (straight_seq XS sg _ _ [] _ sg' out (assign_preserved XS sg x e v Hp Hs Hx Hv Henv') IH).
  - (* a definition is translated as the assignment is *)
    exact (straight_seq XS sg _ _ [] _ sg' out (assign_preserved XS sg x e v Hp Hs Hx Hv Henv') IH).
  - rewrite app_assoc. exact (straight_seq XS sg _ _ _ _ sg' out (print_preserved XS sg es vals Hp Hs Hv) IH).
Qed.

Theorem straight_line_preserved : forall XS sg body sg' out,
  sl XS sg body sg' out -> forall s u s' b,
  go_fix body s = TOk u s' -> env_ok sg ->
  (forall x, In x XS -> var_fine s x) -> represents sg b s XS -> hygienic s XS -> names_inj s XS ->
  exists ls b', b_code s' = b_code s ++ ls /\ exec_outs b ls = Some (b', out) /\ represents sg' b' s' XS.
Proof.
  intros XS sg body sg' out H s u s' b Ht Henv Hfine Hrep Hhy Hinj.
  destruct (sl_straight XS sg body sg' out H s u s' b Ht Henv Hfine Hrep Hhy Hinj) as (ls & b' & E & R & _ & Rep & _).
  exists ls, b'. split; [exact (x_code _ _ _ E)|]. split; [exact R|exact Rep].
Qed.
