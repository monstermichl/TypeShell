(* The arguments of a command call: how Bash reads each rendered argument (AppCall quotes an argument
   when its text begins with a dollar or contains a blank, and splices it bare otherwise), and for which
   arguments the called program therefore receives exactly the given strings.  arg_words is a model of
   Bash (validated against /bin/bash through the probe program by the appcalls stream of the C18 check). *)
From Verif Require Import Base.Bytestr Back.BashLines Back.BashConv Sem.BashSem Sem.Words.
Open Scope N_scope.

(* characters that are ordinary in an unquoted word: letters, digits, underscore and  % + , - . / : = @ ] ^ *)
Definition bare_safe (c : N) : bool :=
  is_word c || existsb (N.eqb c) [37; 43; 44; 45; 46; 47; 58; 61; 64; 93; 94].

(* the words one rendered argument contributes to the argument vector; None: outside the fragment
   (the shell would do something else with it: split, expand, or end the command) *)
Definition arg_words (e : shenv) (t : bytes) : option (list bytes) :=
  match t with
  | [] => Some []                                           (* nothing is passed *)
  | _ =>
      if hd_is 34 t then
        match rev (tl t) with
        | c :: ri => if c =? 34 then option_map (fun w => [w]) (dq e (rev ri)) else None
        | [] => None
        end
      else if forallb bare_safe t then Some [t] else None
  end.

Fixpoint argv_words (e : shenv) (args : list bytes) : option (list bytes) :=
  match args with
  | [] => Some []
  | a :: r => match arg_words e a, argv_words e r with
              | Some w, Some ws => Some (w ++ ws)
              | _, _ => None
              end
  end.

(* arguments for which the heuristic is exact *)
Definition arg_fine (a : atom) : bool :=
  match a with
  | ARef n => forallb is_word n && name_ok n
  | ALit t => match t with
              | [] => false
              | _ => (neutral t && existsb (fun c => c =? 32) t) || forallb bare_safe t
              end
  end.

Lemma bare_safe_props c : bare_safe c = true -> (c =? 36) = false /\ (c =? 32) = false /\ (c =? 34) = false.
Proof.
  intro H. exact (conj (class_neq bare_safe c 36 H eq_refl) (conj (class_neq bare_safe c 32 H eq_refl) (class_neq bare_safe c 34 H eq_refl))).
Qed.

Lemma bare_no_blank t : forallb bare_safe t = true -> existsb (fun c => c =? 32) t = false.
Proof.
  induction t as [|c t IH]; intro H; [reflexivity|]. simpl in H. apply andb_true_iff in H as [Hc Ht].
  simpl. destruct (bare_safe_props c Hc) as [_ [E _]]. rewrite E. apply IH. exact Ht.
Qed.

Lemma arg_words_quoted e t : arg_words e (q ++ t ++ q) = option_map (fun w => [w]) (dq e t).
Proof.
  unfold arg_words, q. cbn [app hd_is tl]. change (34 =? 34) with true. cbn iota.
  rewrite rev_app_distr. cbn [rev app]. change (34 =? 34) with true. cbn iota. rewrite rev_involutive. reflexivity.
Qed.

(* one argument: exactly one word, with exactly the value *)
Theorem arg_exact e a : arg_fine a = true -> arg_words e (app_arg a) = Some [atom_text e a].
Proof.
  destruct a as [t|n]; intro H.
  - cbn [arg_fine] in H. destruct t as [|c t]; [discriminate|]. apply orb_true_iff in H as [H|H].
    + apply andb_true_iff in H as [Hn Hb]. unfold app_arg. cbn [render_atom]. rewrite Hb, orb_true_r.
      rewrite arg_words_quoted. unfold dq. rewrite <- (app_nil_r (c :: t)). rewrite (dq_neutral e _ [] Hn). simpl. rewrite app_nil_r. reflexivity.
    + unfold app_arg. cbn [render_atom]. rewrite (bare_no_blank _ H). simpl in H. apply andb_true_iff in H as [Hc Ht].
      destruct (bare_safe_props c Hc) as [E1 [E2 E3]]. cbn [hd_is]. rewrite E1. cbn [orb].
      unfold arg_words. cbn [hd_is]. rewrite E3. simpl forallb. rewrite Hc, Ht. reflexivity.
  - cbn [arg_fine] in H. unfold app_arg. assert (hd_is 36 (render_atom (ARef n)) = true) as Hd by reflexivity. rewrite Hd. cbn [orb].
    rewrite arg_words_quoted. rewrite (eval_scans_once e (ARef n) H). reflexivity.
Qed.

(* the whole argument vector: as many words as arguments, each with its value *)
Theorem argv_exact e args : forallb arg_fine args = true ->
  argv_words e (map app_arg args) = Some (map (atom_text e) args).
Proof.
  induction args as [|a r IH]; intro H; [reflexivity|]. simpl in H. apply andb_true_iff in H as [Ha Hr].
  cbn [map argv_words]. rewrite (arg_exact e a Ha), (IH Hr). reflexivity.
Qed.

(* Outside that class the property fails; three witnesses (recorded findings of C18). *)
Theorem empty_argument_vanishes e : arg_words e (app_arg (ALit [])) = Some [].
Proof. reflexivity. Qed.

Theorem metacharacter_not_an_argument e : arg_words e (app_arg (ALit (bs "a;b"))) = None /\ arg_words e (app_arg (ALit (bs "*"))) = None.
Proof. split; reflexivity. Qed.

Example argv_sample :
  argv_words [(bs "sv", bs "a;b * ""q"" $x")] (map app_arg [ALit (bs "--exit=7"); ARef (bs "sv"); ALit (bs "two words"); ALit (bs "x1")])
  = Some [bs "--exit=7"; bs "a;b * ""q"" $x"; bs "two words"; bs "x1"].
Proof. vm_compute. reflexivity. Qed.

(* locating the probe call in an emitted script (used by the correspondence check only) *)
Fixpoint first_probe (e : shenv) (stdin : list bytes) (ls : list line) : option (list bytes) :=
  match ls with
  | [] => None
  | l :: r =>
      match l with
      | LRead _ h => first_probe (sh_set h (hd [] stdin) e) (tl stdin) r
      | LPipeline ((n, args) :: _) => if beq n (bs "probe") then argv_words e args else first_probe e stdin r
      | LAssign h (RCapture ((n, args) :: _)) => if beq n (bs "probe") then argv_words e args else first_probe e stdin r
      | LAssign _ _ => match exec_line e l with Some e' => first_probe e' stdin r | None => first_probe e stdin r end
      | LCall n _ => if beq n (bs "body0") then first_probe e stdin r else None     (* other calls are not followed *)
      | _ => first_probe e stdin r
      end
  end.
