(* The flat shell model with loops: Sem/FlatSem.v extended by  while true; do ... done  with break / continue,
   the first-iteration flag of three-clause loops (flag= / flag=1 / if [ ! -z ${flag} ]; then ... fi) and the exit test
   if [ c -ne 1 ]; then break; fi -- the constructs the Bash converter emits for "for".  A loop is entered by pushing
   the list that follows "do"; "done" and "continue" go back to it, "break" goes behind the matching "done". *)
From Verif Require Import Base.Bytestr Back.BashLines Sem.BashSem Sem.StmtPreserve Sem.FlatSem.
Open Scope N_scope.

(* behind the matching done (d: loops opened since) *)
Fixpoint skip_done (ls : list line) (d : nat) : option (list line) :=
  match ls with
  | [] => None
  | LWhile :: r => skip_done r (S d)
  | LDone :: r => match d with O => Some r | S d' => skip_done r d' end
  | _ :: r => skip_done r d
  end.

Definition flag_set (e : shenv) (f : bytes) : bool := match sh_get f e with [] => false | _ => true end.

(* behind the matching closing brace of a function definition (definitions are not nested) *)
Fixpoint skip_close (ls : list line) : option (list line) :=
  match ls with
  | [] => None
  | LClose :: r => Some r
  | _ :: r => skip_close r
  end.

Section Machine.
(* what calling a function does: fuel for the run of its body, name, argument texts, environment -> environment
   afterwards and what was printed (the function bodies are run by the machine itself, one level down: see call_of
   below; a call gets the fuel its caller has left, more fuel never changes a result); and the positional parameters of
   the function body that is being run *)
Variable call : nat -> bytes -> list bytes -> shenv -> option (shenv * bytes).
Variable pos : list bytes.
Definition fuel_mono : Prop := forall f f' n a e r, (f <= f')%nat -> call f n a e = Some r -> call f' n a e = Some r.

Fixpoint lrun (fuel : nat) (seek : bool) (e : shenv) (L : list (list line)) (ls : list line) : option (shenv * bytes) :=
  match fuel with
  | O => None
  | S f =>
      match ls with
      | [] => if seek then None else match L with [] => Some (e, []) | _ => None end
      | l :: r =>
          if seek then
            match l with
            | LIf w c =>
                match cond_true e c with
                | Some true => lrun f false e L r
                | Some false => match skip_branch r 0 with Some r' => lrun f true e L r' | None => None end
                | None => None
                end
            | LElse => lrun f false e L r
            | LFi => lrun f false e L r
            | _ => None
            end
          else
            match l with
            | LIf w c =>
                if is_if w then
                  match cond_true e c with
                  | Some true => lrun f false e L r
                  | Some false => match skip_branch r 0 with Some r' => lrun f true e L r' | None => None end
                  | None => None
                  end
                else match skip_fi r 0 with Some r' => lrun f false e L r' | None => None end
            | LElse => match skip_fi r 0 with Some r' => lrun f false e L r' | None => None end
            | LFi => lrun f false e L r
            | LNop => lrun f false e L r
            | LForInit fl => lrun f false (sh_set fl [] e) L r
            | LFlagSet fl => lrun f false (sh_set fl (bs "1") e) L r
            | LIncrGuard fl =>
                if flag_set e fl then lrun f false e L r
                else match skip_fi r 0 with Some r' => lrun f false e L r' | None => None end
            | LWhile => lrun f false e (r :: L) r
            | LDone => match L with top :: _ => lrun f false e L top | [] => None end
            | LContinue => match L with top :: _ => lrun f false e L top | [] => None end
            | LBreak => match L, skip_done r 0 with _ :: L', Some r' => lrun f false e L' r' | _, _ => None end
            | LBreakUnless c =>
                match cond_true e c with
                | Some true => lrun f false e L r
                | Some false => match L, skip_done r 0 with _ :: L', Some r' => lrun f false e L' r' | _, _ => None end
                | None => None
                end
            | LFuncOpen _ => match skip_close r with Some r' => lrun f false e L r' | None => None end
            | LLocalParam n i => lrun f false (sh_set n (nth (i - 1) pos []) e) L r
            | LReturn => Some (e, [])
            | LClose => Some (e, [])
            | LCall name args =>
                match call f name (map (atom_text e) args) e with
                | Some (e1, o1) => match lrun f false e1 L r with Some (e2, o2) => Some (e2, o1 ++ o2) | None => None end
                | None => None
                end
            | _ => match exec_out e l with
                   | Some (e1, o1) => match lrun f false e1 L r with Some (e2, o2) => Some (e2, o1 ++ o2) | None => None end
                   | None => None
                   end
            end
      end
  end.

Lemma lrun_mono : fuel_mono -> forall f seek e L ls res, lrun f seek e L ls = Some res -> forall f', (f <= f')%nat -> lrun f' seek e L ls = Some res.
Proof.
  intro Hcm. induction f as [|f IH]; intros seek e L ls res H f' Hle; [discriminate|].
  destruct f' as [|f']; [lia|]. assert (f <= f')%nat as Hle' by lia.
  assert (forall sk e0 L0 l0 r0, lrun f sk e0 L0 l0 = Some r0 -> lrun f' sk e0 L0 l0 = Some r0) as IH'
    by (intros sk e0 L0 l0 r0 H0; exact (IH sk e0 L0 l0 r0 H0 f' Hle')).
  cbn [lrun] in *. destruct ls as [|l r]; [exact H|].
  destruct seek.
  - destruct l; try discriminate; auto.
    destruct (cond_true e c) as [[|]|]; try discriminate; auto. destruct (skip_branch r 0); [auto|discriminate].
  - destruct l;
      try (destruct (exec_out e _) as [[e1 o1]|]; [|discriminate];
           destruct (lrun f false e1 L r) as [[e2 o2]|] eqn:E; [|discriminate]; rewrite (IH' _ _ _ _ _ E); exact H);
      auto.
    + destruct (skip_close r); [auto|discriminate].
    + destruct (is_if word).
      * destruct (cond_true e c) as [[|]|]; try discriminate; auto. destruct (skip_branch r 0); [auto|discriminate].
      * destruct (skip_fi r 0); [auto|discriminate].
    + destruct (skip_fi r 0); [auto|discriminate].
    + destruct (flag_set e flag); auto. destruct (skip_fi r 0); [auto|discriminate].
    + destruct (cond_true e c) as [[|]|]; try discriminate; auto.
      destruct L as [|t L']; [discriminate|]. destruct (skip_done r 0); [auto|discriminate].
    + destruct L as [|t L']; [discriminate|auto].
    + destruct L as [|t L']; [discriminate|]. destruct (skip_done r 0); [auto|discriminate].
    + destruct L as [|t L']; [discriminate|auto].
    + destruct (call f name (map (atom_text e) args) e) as [[e1 o1]|] eqn:Ec; [|discriminate]. rewrite (Hcm _ _ _ _ _ _ Hle' Ec).
      destruct (lrun f false e1 L r) as [[e2 o2]|] eqn:E; [|discriminate]. rewrite (IH' _ _ _ _ _ E). exact H.
Qed.
End Machine.

(* the lines behind  name() {  in the script *)
Fixpoint find_def (name : bytes) (ls : list line) : option (list line) :=
  match ls with
  | [] => None
  | LFuncOpen n :: r => if beq n name then Some r else find_def name r
  | _ :: r => find_def name r
  end.

(* a call runs the lines of the definition with the arguments as positional parameters, up to its return or closing
   brace; the functions it calls are run one level down (TypeShell has no recursion: depth bounds the nesting of calls) *)
Fixpoint call_of (script : list line) (depth fuel : nat) (name : bytes) (args : list bytes) (e : shenv) : option (shenv * bytes) :=
  match depth with
  | O => None
  | S d => match find_def name script with
           | Some body => lrun (call_of script d) args fuel false e [] body
           | None => None
           end
  end.

Lemma call_of_mono script : forall d, fuel_mono (call_of script d).
Proof.
  induction d as [|d IH]; intros f f' name args e r Hf H; [discriminate|].
  cbn [call_of] in *. destruct (find_def name script) as [body|]; [|discriminate].
  exact (lrun_mono _ args IH f false e [] body r H f' Hf).
Qed.
