(* Function definitions refine source-level calls (C02): parameter binding, the frame of mangled locals, the return
   registers.  The body of a function is a program of Sem.LoopPreserve.v (assignments, prints, conditionals, loops, calls of
   earlier functions through the oracle); it ends with a return statement - at the end, inside if / else-if / else
   branches or inside loops - or falls off its end when it returns nothing. *)
From Verif Require Import Base.Bytestr Front.Ast Back.BashLines Back.Transpile Back.BashConv Back.BashFacts
  Back.NameFacts Sem.Src Sem.BashSem Sem.ExprPreserve Sem.StmtPreserve Sem.FlatSem Sem.IfPreserve Sem.FlatLoop Sem.LoopPreserve.
From Coq Require Import ZArith.
Open Scope N_scope.

(* how a function body ends: with return e1, .., en, or - a function without results - by reaching its end *)
Definition ret_of (g : sig) (rvals : list value) : Prop := g = SR rvals \/ (g = SN /\ rvals = []).

Fixpoint bind (ps : list var) (vals : list value) (sg : senv) : senv :=
  match ps, vals with p :: pr, v :: vr => bind pr vr (supd sg p v) | _, _ => sg end.
Definition globals_of (sg : senv) : senv := fun x => if v_global x then sg x else None.
Definition leave (sg sgl : senv) : senv := fun x => if v_global x then sgl x else sg x.

Lemma env_ok_globals sg : env_ok sg -> env_ok (globals_of sg).
Proof. intros H y w Hw. unfold globals_of in Hw. destruct (v_global y); [exact (H y w Hw)|discriminate]. Qed.
Lemma env_ok_leave sg sgl : env_ok sg -> env_ok sgl -> env_ok (leave sg sgl).
Proof. intros H1 H2 y w Hw. unfold leave in Hw. destruct (v_global y); [exact (H2 y w Hw)|exact (H1 y w Hw)]. Qed.

Lemma bind_assign_all : forall ps vals sg, bind ps vals sg = assign_all sg ps vals.
Proof. induction ps as [|p pr IH]; intros vals sg; destruct vals as [|v vr]; try reflexivity. cbn [bind assign_all]. apply IH. Qed.

Fixpoint param_lines (cf : nat) (names : list bytes) (i : nat) : list line :=
  match names with [] => [] | n :: r => LLocalParam (mangled cf n) i :: param_lines cf r (S i) end.
Fixpoint bindsh (cf : nat) (names : list bytes) (j : nat) (pos : list bytes) (e : shenv) : shenv :=
  match names with [] => e | n :: r => bindsh cf r (S j) pos (sh_set (mangled cf n) (nth j pos []) e) end.

Lemma skipn_cons_nth {A} (d : A) : forall j (l : list A) a r, skipn j l = a :: r -> nth j l d = a /\ skipn (S j) l = r.
Proof.
  induction j as [|j IH]; intros l a r H.
  - cbn [skipn] in H. subst l. split; reflexivity.
  - destruct l as [|x l]; [discriminate|]. cbn [skipn] in H. destruct (IH l a r H) as [H1 H2]. split; [exact H1|exact H2].
Qed.

Lemma param_lines_inner cf : forall names i, forallb inner (param_lines cf names i) = true.
Proof. induction names as [|n r IH]; intro i; [reflexivity|]. exact (IH (S i)). Qed.

Lemma params_run call pos cf : forall names j e L rest res,
  lruns call pos (bindsh cf names j pos e) L rest res -> lruns call pos e L (param_lines cf names (S j) ++ rest) res.
Proof.
  induction names as [|n r IH]; intros j e L rest res H; [exact H|].
  cbn [bindsh] in H. destruct (IH (S j) _ L rest res H) as [f Hf]. exists (S f). cbn [param_lines app lrun].
  replace (S j - 1)%nat with j by lia. exact Hf.
Qed.

Lemma bindsh_frame cf pos : forall names j e n, (forall p, n <> mangled cf p) -> sh_get n (bindsh cf names j pos e) = sh_get n e.
Proof.
  induction names as [|m r IH]; intros j e n Hn; [reflexivity|]. cbn [bindsh]. rewrite (IH (S j) _ n Hn). apply sh_get_set_other. apply Hn.
Qed.

Lemma bind_represents XSf sf : (0 < b_funcs sf)%nat -> names_inj sf XSf ->
  forall ps vals j sg e pos, length vals = length ps -> (forall p, In p ps -> v_global p = false /\ In p XSf) ->
  skipn j pos = map text vals -> represents sg e sf XSf ->
  represents (bind ps vals sg) (bindsh (b_func_counter sf) (map v_name ps) j pos e) sf XSf.
Proof.
  intros Hf Hinj. induction ps as [|p pr IH]; intros vals j sg e pos Hl Hps Hsk Hrep; [destruct vals; exact Hrep|].
  destruct vals as [|v vr]; [discriminate|]. cbn [bind map bindsh]. cbn [map] in Hsk.
  destruct (skipn_cons_nth [] j pos _ _ Hsk) as [Hn Hs].
  destruct (Hps p (or_introl eq_refl)) as [Hg Hin].
  assert (user_name sf p = mangled (b_func_counter sf) (v_name p)) as Hun by (unfold user_name; rewrite Hg; apply var_name_local; exact Hf).
  apply (IH vr (S j) _ _ pos); [cbn [length] in Hl; lia|intros q Hq; exact (Hps q (or_intror Hq))|exact Hs|].
  intros y w Hy Hw. unfold supd in Hw. destruct (same_var y p) eqn:Sv.
  - inversion Hw; subst w. rewrite (same_var_name sf y p Sv), Hun. rewrite sh_get_set_same. exact Hn.
  - rewrite sh_get_set_other; [exact (Hrep y w Hy Hw)|]. rewrite <- Hun. intro Heq. rewrite (Hinj y p Hy Hin Heq) in Sv. discriminate.
Qed.

Lemma helper_name_local sf k : (0 < b_funcs sf)%nat -> helper_name sf k = mangled (b_func_counter sf) (bs "_h" ++ dec_nat k).
Proof. intro H. unfold helper_name. apply var_name_local. exact H. Qed.

Lemma user_name_global s s' x : v_global x = true -> user_name s x = user_name s' x.
Proof. intro H. unfold user_name. rewrite H, !var_name_global. reflexivity. Qed.

Lemma same_var_global y x : same_var y x = true -> v_global y = v_global x.
Proof. unfold same_var. intro H. apply andb_true_iff in H as [H _]. apply andb_true_iff in H as [_ H]. exact (Bool.eqb_prop _ _ H). Qed.

Section Func.
(* the callee: what it may call, its own loop and function numbers *)
Variable call : nat -> bytes -> list bytes -> shenv -> option (shenv * bytes).
Hypothesis call_mono : fuel_mono call.
Variables klo_f mlo_f : nat.
Variable scall : list var -> bytes -> list value -> senv -> list value -> senv -> bytes -> Prop.
Hypothesis call_ok : call_refines call klo_f mlo_f scall.
(* the caller *)
Variables klo_c mlo_c : nat.

(* the body of a function up to its closing brace, from the environment the parameters were bound in *)
Lemma body_refines pos XS sg0 body sgl o g rvals sf u sr b0 :
  J scall XS (Prog body) sg0 sgl o g -> ret_of g rvals -> go_fix body sf = TOk u sr ->
  env_ok sg0 -> ctx_ok XS sg0 b0 sf -> fresh_flags klo_f mlo_f XS sf ->
  exists X bF, cext sf sr X /\ ctx_ok XS sgl bF sr /\ untouched klo_f mlo_f XS sf sr b0 bF /\
    (forall i v, nth_error rvals i = Some v -> sh_get (rv_name i) bF = text v) /\
    forall rest, lruns call pos b0 [] (X ++ [LClose] ++ rest) (bF, o).
Proof.
  intros HJ Hg Ht Henv Hc Hfl.
  destruct (J_steps call pos call_mono klo_f mlo_f scall call_ok XS (Prog body) sg0 sgl o g HJ sf u sr b0 Ht Henv Hc Hfl) as (X & bF & Ex & _ & Cc & U & Rg & Hk).
  exists X, bF. split; [exact Ex|]. split; [exact Cc|]. split; [exact U|].
  split; [destruct Hg as [->|[-> ->]]; [exact Rg|intros [|i] v Hi; discriminate Hi]|].
  intro rest.
  assert (after call pos g bF [] ([LClose] ++ rest) (bF, [])) as Ha by (destruct Hg as [->|[-> _]]; [reflexivity|exists 1%nat; reflexivity]).
  specialize (Hk [] _ _ Ha). rewrite prepend_end in Hk. exact Hk.
Qed.

Lemma func_refines XSf sf sr params body u XS s b sg vals sgl o g rvals :
  (0 < b_funcs sf)%nat -> (b_func_counter sf < mlo_c)%nat -> (mlo_f <= mlo_c)%nat -> (b_for_counter sr <= klo_c)%nat ->
  (forall x, In x XSf -> var_fine sf x) -> hygienic sf XSf -> names_inj sf XSf -> fresh_flags klo_f mlo_f XSf sf ->
  (forall p, In p params -> v_global p = false /\ In p XSf) ->
  (forall x, v_global x = true -> (In x XS <-> In x XSf)) ->
  go_fix body sf = TOk u sr -> frag2_all body = true ->
  length vals = length params -> env_ok (bind params vals (globals_of sg)) ->
  J scall XSf (Prog body) (bind params vals (globals_of sg)) sgl o g -> ret_of g rvals ->
  ctx_ok XS sg b s -> fresh_flags klo_c mlo_c XS s ->
  exists X bF, cext sf sr X /\
    (forall rest, lruns call (map text vals) b [] (param_lines (b_func_counter sf) (map v_name params) 1 ++ X ++ [LClose] ++ rest) (bF, o)) /\
    ctx_ok XS (leave sg sgl) bF s /\ untouched klo_c mlo_c XS s s b bF /\
    (forall i v, nth_error rvals i = Some v -> sh_get (rv_name i) bF = text v).
Proof.
  intros Hfun Hcf Hml Hkl Hfine Hhy Hinj Hflf Hps Hag Hbody Hfrag Hlen Henv0 HJ Hrv [Cf Crep Chy Cinj] Hflc.
  set (cf := b_func_counter sf) in *. set (pos := map text vals).
  set (b0 := bindsh cf (map v_name params) 0 pos b).
  (* the frame at entry *)
  assert (represents (globals_of sg) b sf XSf) as Hrep0.
  { intros x w Hx Hw. unfold globals_of in Hw. destruct (v_global x) eqn:Hg; [|discriminate].
    rewrite (user_name_global sf s x Hg). exact (Crep x w (proj2 (Hag x Hg) Hx) Hw). }
  assert (ctx_ok XSf (bind params vals (globals_of sg)) b0 sf) as Hc0.
  { constructor; [exact Hfine| |exact Hhy|exact Hinj]. unfold b0, cf. apply (bind_represents XSf sf Hfun Hinj); [exact Hlen|exact Hps|reflexivity|exact Hrep0]. }
  destruct (body_refines pos XSf _ body sgl o g rvals sf u sr b0 HJ Hrv Hbody Henv0 Hc0 Hflf)
    as (X & bF & Ex & CF & UF & VF & Hk).
  exists X, bF. split; [exact Ex|].
  split; [intro rest; apply params_run; exact (Hk rest)|].
  (* names of the caller are none of the callee's *)
  destruct Hflc as (Fc1 & Fc2 & _ & Fc4 & _). destruct Hflf as (_ & _ & Ff3 & _).
  assert (forall n, (forall x, In x XS -> v_global x = true -> n <> user_name s x) -> (forall c y, (c < mlo_c)%nat -> n <> mangled c y) ->
                    (forall k, (k < klo_c)%nat -> n <> fname k) -> (forall i, n <> rv_name i) -> sh_get n bF = sh_get n b) as Frame.
  { intros n Hg Hm Hk0 Hr. rewrite UF.
    - unfold b0. apply bindsh_frame. intro p. apply Hm. exact Hcf.
    - intros y Hy. destruct (v_global y) eqn:Gy.
      + rewrite (user_name_global sf s y Gy). exact (Hg y (proj2 (Hag y Gy) Hy) Gy).
      + unfold user_name. rewrite Gy, (var_name_local sf _ Hfun). apply Hm. exact Hcf.
    - intro k. rewrite (helper_name_local sf k Hfun). apply Hm. exact Hcf.
    - intros k Hk1. apply Hk0. pose proof (cx_mono _ _ _ Ex). lia.
    - intros c y Hc. apply Hm. lia.
    - exact Hr.
    - intro i. unfold ma_var. rewrite (var_name_local sf _ Hfun). apply Hm. exact Hcf. }
  split.
  { constructor; [exact Cf| |exact Chy|exact Cinj].
    intros x w Hx Hw. unfold leave in Hw. destruct (v_global x) eqn:Gx.
    - rewrite (user_name_global s sr x Gx). exact (c_rep _ _ _ _ CF x w (proj1 (Hag x Gx) Hx) Hw).
    - rewrite Frame; [exact (Crep x w Hx Hw)| | | |].
      + intros y Hy Gy Heq. pose proof (same_var_global x y (Cinj x y Hx Hy Heq)) as Sg. rewrite Gx, Gy in Sg. discriminate.
      + intros c y Hc. exact (Fc4 x c y Hx Hc).
      + intros k _. exact (Fc1 x k Hx).
      + intro i. exact (Fc2 x i Hx). }
  split; [|exact VF].
  intros n Hu Hh Hf Hm Hr _. apply Frame.
  - intros x Hx _. exact (Hu x Hx).
  - exact Hm.
  - intros k Hk0. apply Hf. left. exact Hk0.
  - exact Hr.
Qed.
End Func.

(* a definition  func name(params) { body }  with the variables it uses (globals, parameters, locals) and the converter
   states at which its body was translated: after the header and after the body *)
Record fdef := mkFdef {
  fd_name : bytes; fd_params : list var; fd_body : list stmt; fd_vars : list var;
  fd_sf : bstate; fd_sr : bstate
}.
Definition fd_num (F : fdef) : nat := b_func_counter (fd_sf F).

(* the source side of calls: a call of F binds the arguments to the parameters in a frame that sees the globals only,
   runs the body (whose calls go one level down, to functions defined before F) up to a return statement or its end;
   the caller gets its own locals back and the globals as the function left them *)
Fixpoint scall_at (defs : list fdef) (d : nat) (klo mlo : nat) (XS : list var) (f : bytes) (vals : list value) (sg : senv)
                  (rvals : list value) (sg1 : senv) (o : bytes) : Prop :=
  match d with
  | O => False
  | S d' => exists F sgl g,
      In F defs /\ fd_name F = f /\ (fd_num F < mlo)%nat /\ (b_for_counter (fd_sr F) <= klo)%nat /\
      (forall x, v_global x = true -> (In x XS <-> In x (fd_vars F))) /\ length vals = length (fd_params F) /\
      env_ok (bind (fd_params F) vals (globals_of sg)) /\
      J (scall_at defs d' (b_for_counter (fd_sf F)) (fd_num F)) (fd_vars F) (Prog (fd_body F)) (bind (fd_params F) vals (globals_of sg)) sgl o g /\
      ret_of g rvals /\ sg1 = leave sg sgl
  end.

(* the definition was translated as the converter does and stands in the script *)
Definition fun_ok (script : list line) (F : fdef) : Prop :=
  (0 < b_funcs (fd_sf F))%nat /\
  (forall x, In x (fd_vars F) -> var_fine (fd_sf F) x) /\ hygienic (fd_sf F) (fd_vars F) /\ names_inj (fd_sf F) (fd_vars F) /\
  fresh_flags (b_for_counter (fd_sf F)) (fd_num F) (fd_vars F) (fd_sf F) /\
  (forall p, In p (fd_params F) -> v_global p = false /\ In p (fd_vars F)) /\
  go_fix (fd_body F) (fd_sf F) = TOk tt (fd_sr F) /\ frag2_all (fd_body F) = true /\
  exists X tail, b_code (fd_sr F) = b_code (fd_sf F) ++ X /\
                 find_def (fd_name F) script = Some (param_lines (fd_num F) (map v_name (fd_params F)) 1 ++ X ++ [LClose] ++ tail).

(* The functions of the script refine the source calls, at every nesting depth of calls. *)
Theorem calls_refined defs script : (forall F, In F defs -> fun_ok script F) ->
  forall d klo mlo, call_refines (call_of script d) klo mlo (scall_at defs d klo mlo).
Proof.
  intro Hok. induction d as [|d IH]; intros klo mlo XS f vals sg rvals sg1 o b s Hs Henv Hc Hfl; [destruct Hs|].
  destruct Hs as (F & sgl & g & HF & Hname & Hnum & Hhi & Hag & Hlen & Henv0 & HJ & Hrv & ->).
  destruct (Hok F HF) as (Hfun & Hfine & Hhy & Hinj & Hflf & Hps & Hbody & Hfrag & X0 & tail & Hcode & Hfind).
  destruct (func_refines (call_of script d) (call_of_mono script d) (b_for_counter (fd_sf F)) (fd_num F)
              (scall_at defs d (b_for_counter (fd_sf F)) (fd_num F)) (IH _ _) klo mlo
              (fd_vars F) (fd_sf F) (fd_sr F) (fd_params F) (fd_body F) tt XS s b sg vals sgl o g rvals
              Hfun Hnum (Nat.lt_le_incl _ _ Hnum) Hhi Hfine Hhy Hinj Hflf Hps Hag Hbody Hfrag Hlen Henv0 HJ Hrv Hc Hfl)
    as (X & bF & Ex & Hrun & CF & UF & VF).
  assert (X0 = X) as -> by exact (code_same_cext _ _ _ _ Hcode Ex).
  exists bF. split; [|split; [exact CF|split; [exact UF|exact VF]]].
  destruct (Hrun tail) as [n Hn]. exists n. intros fu Hfu. cbn [call_of]. rewrite <- Hname, Hfind.
  exact (lrun_mono _ _ (call_of_mono script d) n false b [] _ _ Hn fu Hfu).
Qed.

(* Programs that call functions: the lines of a stretch of code (assignments, prints, conditionals, loops, calls), run by
   the flat shell model with the script's own functions as the call oracle, print what the source prints - the output of
   the called functions in its place - and leave the shell environment representing the final source environment. *)
Theorem calls_preserved defs script d klo mlo pos : (forall F, In F defs -> fun_ok script F) ->
  forall XS sg body sg' out s u s' b,
  J (scall_at defs d klo mlo) XS (Prog body) sg sg' out SN -> go_fix body s = TOk u s' -> frag2_all body = true ->
  env_ok sg -> ctx_ok XS sg b s -> fresh_flags klo mlo XS s ->
  exists X b', b_code s' = b_code s ++ X /\ lruns (call_of script d) pos b [] X (b', out) /\ represents sg' b' s' XS.
Proof.
  intros Hok. exact (loops_preserved (call_of script d) pos (call_of_mono script d) klo mlo (scall_at defs d klo mlo) (calls_refined defs script Hok d klo mlo)).
Qed.

(* where the pieces of fun_ok come from: the translation of a definition *)
Lemma params_fold_lines : forall names st i, (0 < b_funcs st)%nat ->
  let r := fst (fold_left (fun (acc : bstate * nat) p => let '(st, i) := acc in (add_line (LLocalParam (var_name st p false) i) st, S i)) names (st, i)) in
  b_code r = b_code st ++ param_lines (b_func_counter st) names i /\ b_funcs r = b_funcs st /\ b_func_counter r = b_func_counter st /\
  b_for_counter r = b_for_counter st.
Proof.
  induction names as [|n r IH]; intros st i Hf; cbn [fold_left fst param_lines].
  - rewrite app_nil_r. repeat split.
  - destruct (IH (add_line (LLocalParam (var_name st n false) i) st) (S i) Hf) as (A & B & C & D).
    cbn zeta in A, B, C, D. rewrite A, B, C, D. cbn [add_line b_code b_funcs b_func_counter b_for_counter].
    rewrite (var_name_local st n Hf), <- app_assoc. repeat split.
Qed.

Lemma func_start_lines f names rets s0 :
  let sf := cv_func_start bstate atom bash_conv f names rets s0 in
  b_code sf = b_code s0 ++ [LFuncOpen f] ++ param_lines (S (b_func_counter s0)) names 1 /\
  b_funcs sf = S (b_funcs s0) /\ b_func_counter sf = S (b_func_counter s0) /\ b_for_counter sf = b_for_counter s0.
Proof.
  cbv zeta. unfold bash_conv. cbn [cv_func_start].
  match goal with |- context [fold_left ?g names (?a0, 1%nat)] => destruct (params_fold_lines names a0 1%nat) as (A & B & C & D) end.
  { cbn [add_line b_funcs]. lia. }
  cbn zeta in A, B, C, D. rewrite A, B, C, D. cbn [add_line b_code b_funcs b_func_counter b_for_counter]. rewrite <- app_assoc. repeat split.
Qed.

Lemma go_fix_app : forall a b s u s', go_fix (a ++ b) s = TOk u s' -> exists sm, go_fix a s = TOk tt sm /\ go_fix b sm = TOk u s'.
Proof.
  induction a as [|x r IH]; intros b s u s' H; [exists s; split; [reflexivity|exact H]|].
  cbn [app go_fix] in H. mb H as u1 s1 H1 H2. destruct (IH b s1 u s' H2) as (sm & Ha & Hb).
  exists sm. split; [cbn [go_fix]; unfold mbind; rewrite H1; destruct u1; exact Ha|exact Hb].
Qed.

Lemma find_def_app f : forall pre r, (forall n, In (LFuncOpen n) pre -> n <> f) -> find_def f (pre ++ LFuncOpen f :: r) = Some r.
Proof.
  induction pre as [|l pre IH]; intros r Hn.
  - cbn [app find_def]. rewrite beq_refl. reflexivity.
  - cbn [app]. assert (find_def f (pre ++ LFuncOpen f :: r) = Some r) as E by (apply IH; intros n Hin; apply Hn; right; exact Hin).
    destruct l; cbn [find_def]; try exact E.
    destruct (beq name f) eqn:B; [|exact E]. apply beq_eq in B. exfalso. exact (Hn name (or_introl eq_refl) B).
Qed.

(* func f(params) rets { body }: the states of fun_ok, the function's number, the lines the definition appends *)
Lemma func_decompose f rets params x body pub s s' :
  t_stmt bash_conv (SFunc f rets params (x :: body) pub) s = TOk tt s' -> frag2_all (x :: body) = true ->
  let sf := cv_func_start bstate atom bash_conv f (map v_name params) rets s in
  exists sr X, go_fix (x :: body) sf = TOk tt sr /\ cext sf sr X /\ cl3 X /\
    b_code s' = b_code s ++ [LFuncOpen f] ++ param_lines (S (b_func_counter s)) (map v_name params) 1 ++ X ++ [LClose] /\
    b_funcs sf = S (b_funcs s) /\ b_func_counter sf = S (b_func_counter s) /\ b_for_counter sf = b_for_counter s /\
    b_funcs s' = b_funcs s /\ b_func_counter s' = S (b_func_counter s) /\ b_for_counter s' = b_for_counter sr.
Proof.
  intros H Hfrag. cbv zeta. set (sf := cv_func_start bstate atom bash_conv f (map v_name params) rets s).
  destruct (func_start_lines f (map v_name params) rets s) as (A & B & C & D). fold sf in A, B, C, D.
  cbn [t_stmt] in H. mb H as u0 s1 H0 H1. mu H0. subst s1. fold sf in H1. mb H1 as u1 sr H1 H2. destruct u1.
  change (go_fix (x :: body) sf = TOk tt sr) in H1.
  destruct (go_e3 (x :: body) (all_e3 _) Hfrag sf tt sr H1) as (X & E & CX & _).
  rewrite bash_func_end in H2. pose proof (cx_funcs _ _ _ E) as Hfs. rewrite B in Hfs. rewrite Hfs in H2. cbv zeta in H2. inversion H2; subst s'; clear H2.
  exists sr, X. split; [exact H1|]. split; [exact E|]. split; [exact CX|].
  cbn [add_line b_code b_funcs b_func_counter b_for_counter]. rewrite (cx_code _ _ _ E), A, (cx_fcnt _ _ _ E), C. rewrite <- !app_assoc.
  repeat split; try assumption; reflexivity.
Qed.

(* the same for a script: the definition's lines stand in any script that contains the translated code and has no earlier
   definition of the same name *)
Theorem definition_in_script f rets params x body pub s0 s0' later :
  t_stmt bash_conv (SFunc f rets params (x :: body) pub) s0 = TOk tt s0' -> frag2_all (x :: body) = true ->
  (forall n, In (LFuncOpen n) (b_code s0) -> n <> f) ->
  let sf := cv_func_start bstate atom bash_conv f (map v_name params) rets s0 in
  exists sr X,
    go_fix (x :: body) sf = TOk tt sr /\ b_code sr = b_code sf ++ X /\
    b_funcs sf = S (b_funcs s0) /\ b_func_counter sf = S (b_func_counter s0) /\ b_for_counter sf = b_for_counter s0 /\
    b_for_counter s0' = b_for_counter sr /\
    find_def f (b_code s0' ++ later) = Some (param_lines (b_func_counter sf) (map v_name params) 1 ++ X ++ [LClose] ++ later).
Proof.
  intros H Hfrag Hno. cbv zeta.
  destruct (func_decompose f rets params x body pub s0 s0' H Hfrag) as (sr & X & Hgo & Ex & _ & Ec & B & C & D & _ & _ & D1).
  exists sr, X. repeat (split; [first [assumption|exact (cx_code _ _ _ Ex)]|]).
  rewrite Ec, C, <- !app_assoc. exact (find_def_app f (b_code s0) _ Hno).
Qed.
