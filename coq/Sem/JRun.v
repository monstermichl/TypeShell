(* An executable interpreter for the source semantics J of the simulation theorems, and its soundness: whatever jrun
   computes has a J derivation.  The interpreter is extracted and compared, on every generated program of the fragment,
   with the reference semantics Sem/Src.v (which is itself compared with /bin/bash runs of the implementation's script):
   so the source semantics of the theorems is tied to the validated reference. *)
From Verif Require Import Base.Bytestr Front.Ast Back.BashLines Back.Transpile Back.BashConv
  Sem.Src Sem.SrcFacts Sem.ExprPreserve Sem.StmtPreserve Sem.IfPreserve Sem.LoopPreserve Sem.CallPreserve.
From Coq Require Import ZArith.
Open Scope N_scope.

(* For a hypothesis H saying that a step of the interpreter succeeded: cnd H takes the true branch of the `if` at its head,
   opn H the Some branch of the match on an option at its head (opv names the value, opn3 the components of a triple); the
   other branch contradicts H, and the test or the scrutinee is kept as an equation E, E0, E1, .. in the order of the
   calls.  ands E splits E : a && .. && y && z = true from the right into A : z, A0 : y, .., leaving a in E. *)
Ltac cnd H := lazymatch type of H with (if ?c then _ else _) = Some _ => let E := fresh "E" in destruct c eqn:E; [|discriminate H] end.
Ltac opn H := lazymatch type of H with match ?o with Some _ => _ | None => _ end = Some _ => let E := fresh "E" in destruct o eqn:E; [|discriminate H] end.
Ltac opn3 H a b c := lazymatch type of H with match ?o with Some _ => _ | None => _ end = Some _ => let E := fresh "E" in destruct o as [[[a b] c]|] eqn:E; [|discriminate H] end.
Ltac opv H v := lazymatch type of H with match ?o with Some _ => _ | None => _ end = Some _ => let E := fresh "E" in destruct o as [v|] eqn:E; [|discriminate H] end.
Ltac ands E := repeat match type of E with (_ && _) = true => let A := fresh "A" in apply andb_true_iff in E as [E A] end.

(* boolean versions of the side conditions of J, each with the lemma that it implies the condition *)
Definition var_eqb (x y : var) : bool :=
  beq (v_name x) (v_name y) && vtype_eqb (v_type x) (v_type y) && Bool.eqb (v_global x) (v_global y) && Bool.eqb (v_public x) (v_public y).

Lemma var_eqb_eq x y : var_eqb x y = true -> x = y.
Proof.
  unfold var_eqb. intro H. ands H. unfold vtype_eqb in A1. ands A1.
  apply beq_eq in H. apply dtype_eqb_eq in A1. apply Bool.eqb_prop in A, A0, A2.
  destruct x as [n1 [d1 s1] g1 p1], y as [n2 [d2 s2] g2 p2]. cbn in *. subst. reflexivity.
Qed.

Fixpoint inb (x : var) (l : list var) : bool := match l with [] => false | y :: r => var_eqb x y || inb x r end.
Lemma inb_In x l : inb x l = true -> In x l.
Proof.
  induction l as [|y r IH]; intro H; [discriminate|]. cbn [inb] in H. apply orb_true_iff in H as [H|H].
  - left. symmetry. exact (var_eqb_eq x y H).
  - right. exact (IH H).
Qed.

Lemma forallb_ok {A} (pb : A -> bool) (P : A -> Prop) : (forall a, pb a = true -> P a) ->
  forall l, forallb pb l = true -> forall a, In a l -> P a.
Proof. intros HP l H a Ha. rewrite forallb_forall in H. exact (HP a (H a Ha)). Qed.

Lemma inb_all XS xs : forallb (fun x => inb x XS) xs = true -> forall x, In x xs -> In x XS.
Proof. exact (forallb_ok _ _ (fun x => inb_In x XS) xs). Qed.

Definition in64b (z : Z) : bool := (int64_min <=? z)%Z && (z <=? int64_max)%Z.
Lemma in64b_ok z : in64b z = true -> (int64_min <= z <= int64_max)%Z.
Proof. unfold in64b. intro H. ands H. apply Z.leb_le in H, A. exact (conj H A). Qed.

Fixpoint lits_okb (e : expr) : bool :=
  match e with
  | EInt z => in64b z
  | EGroup x | EUnary x | EItoa x | ELen x => lits_okb x
  | EBinary l _ r | ECompare l _ r | ELogical l _ r => lits_okb l && lits_okb r
  | _ => true
  end.
Lemma lits_okb_ok : forall e, lits_okb e = true -> lits_ok e.
Proof.
  fix IH 1. intros e. destruct e; cbn [lits_okb lits_ok]; intro H; try exact I.
  - exact (in64b_ok z H).
  - exact (IH _ H).
  - ands H. exact (conj (IH _ H) (IH _ A)).
  - ands H. exact (conj (IH _ H) (IH _ A)).
  - ands H. exact (conj (IH _ H) (IH _ A)).
  - exact (IH _ H).
  - exact (IH _ H).
  - exact (IH _ H).
Qed.

Definition sideb (XS : list var) (e : expr) : bool := lits_okb e && lits_neutral e && forallb (fun x => inb x XS) (vars_of e).
Lemma sideb_ok XS e : sideb XS e = true -> side XS e.
Proof. unfold sideb. intro H. ands H. exact (conj (lits_okb_ok e H) (conj A0 (inb_all XS _ A))). Qed.
Lemma sidesb_ok XS es : forallb (sideb XS) es = true -> forall e, In e es -> side XS e.
Proof. exact (forallb_ok _ _ (sideb_ok XS) es). Qed.

Definition in_rangeb (v : value) : bool := match v with VInt z => in64b z | _ => true end.
Definition typedb (v : value) (x : var) : bool := dtype_eqb (vkind v) (dt (v_type x)) && negb (is_slice (v_type x)) && in_rangeb v.
Lemma typedb_ok sg x v : env_ok sg -> typedb v x = true -> env_ok (supd sg x v).
Proof.
  unfold typedb. intros He H. ands H. apply negb_true_iff in A0.
  apply env_ok_supd; [exact He|exact (dtype_eqb_eq _ _ H)|exact A0|]. destruct v; try exact I. exact (in64b_ok _ A).
Qed.

Fixpoint typed_all (vals : list value) (xs : list var) : bool :=
  match vals, xs with v :: vr, x :: xr => typedb v x && typed_all vr xr | [], [] => true | _, _ => false end.
Lemma typed_all_ok : forall xs vals sg, env_ok sg -> typed_all vals xs = true -> env_ok (assign_all sg xs vals) /\ length vals = length xs.
Proof.
  induction xs as [|x xr IH]; intros vals sg He H; destruct vals as [|v vr]; try discriminate; [exact (conj He eq_refl)|].
  cbn [typed_all] in H. ands H. cbn [assign_all length].
  destruct (IH vr (supd sg x v) (typedb_ok sg x v He H) A) as [E L]. exact (conj E (f_equal S L)).
Qed.

Fixpoint bools_of (vals : list value) : option (list bool) :=
  match vals with
  | [] => Some []
  | VBool b :: r => match bools_of r with Some bs => Some (b :: bs) | None => None end
  | _ => None
  end.
Lemma bools_of_ok : forall vals bs, bools_of vals = Some bs -> vals = map VBool bs.
Proof.
  induction vals as [|v r IH]; intros bs H; cbn [bools_of] in H; [injection H as <-; reflexivity|].
  destruct v; try discriminate. opv H bs0. injection H as <-. exact (f_equal (cons (VBool b)) (IH bs0 eq_refl)).
Qed.

Definition is_SN (g : sig) : bool := match g with SN => true | _ => false end.

Definition jres := (senv * bytes * sig)%type.
Definition jcall_t := bytes -> list value -> senv -> option (list value * senv * bytes).

Section Step.
Variable XS : list var.
Variable jc : jcall_t.
Variable rec : code -> senv -> option jres.

Definition then_rest (r : list stmt) (sg : senv) (pre : bytes) : option jres :=
  match rec (Prog r) sg with Some (sg', out, g) => Some (sg', pre ++ out, g) | None => None end.

Definition j_assign_step (xs : list var) (es : list expr) (r : list stmt) (sg : senv) : option jres :=
  match xs, es with
  | [x], [e] =>
      if pure e && sideb XS e && inb x XS then
        match peval sg e with
        | Some v => if typedb v x then rec (Prog r) (supd sg x v) else None
        | None => None
        end
      else None
  | _, _ =>
      if forallb pure es && forallb (sideb XS) es && forallb (fun x => inb x XS) xs && (2 <=? length xs)%nat && Nat.eqb (length es) (length xs) then
        match pevals sg es with
        | Some vals => if typed_all vals xs then rec (Prog r) (assign_all sg xs vals) else None
        | None => None
        end
      else None
  end.

Definition j_call_step (xs : list var) (call : expr) (r : list stmt) (sg : senv) : option jres :=
  match call with
  | ECall fn rets args =>
      if forallb pure args && forallb (sideb XS) args && forallb (fun x => inb x XS) xs && Nat.eqb (length rets) (length xs) then
        match pevals sg args with
        | Some vals =>
            match jc fn vals sg with
            | Some (rvals, sg1, o) => if typed_all rvals xs then then_rest r (assign_all sg1 xs rvals) o else None
            | None => None
            end
        | None => None
        end
      else None
  | _ => None
  end.

Definition jstep (c : code) (sg : senv) : option jres :=
  match c with
  | Prog [] => Some (sg, [], SN)
  | Prog (st :: r) =>
      match st with
      | SAssign xs es => j_assign_step xs es r sg
      | SVarDef xs es => j_assign_step xs es r sg
      | SAssignCall xs call => j_call_step xs call r sg
      | SVarDefCall xs call => j_call_step xs call r sg
      | SPrint es =>
          if forallb pure es && forallb (sideb XS) es then
            match pevals sg es with Some vals => then_rest r sg (join [32] (map text vals) ++ [10]) | None => None end
          else None
      | SExpr (ECall fn rets args) =>
          if forallb pure args && forallb (sideb XS) args then
            match pevals sg args with
            | Some vals => match jc fn vals sg with Some (rvals, sg1, o) => then_rest r sg1 o | None => None end
            | None => None
            end
          else None
      | SReturn es =>
          if forallb pure es && forallb (sideb XS) es && frag2_all r then
            match pevals sg es with Some rvals => Some (sg, [], SR rvals) | None => None end
          else None
      | SBreak => if frag2_all r then Some (sg, [], SB) else None
      | SContinue => if frag2_all r then Some (sg, [], SC) else None
      | SIf ((c0, b0) :: elifs) els =>
          if frag2 st && forallb (fun cb => sideb XS (fst cb)) ((c0, b0) :: elifs) then
            match pevals sg (c0 :: map fst elifs) with
            | Some vals =>
                match bools_of vals with
                | Some bools =>
                    match rec (Prog (pick bools (b0 :: map snd elifs) els)) sg with
                    | Some (sgm, outm, g) =>
                        if is_SN g then then_rest r sgm outm
                        else if frag2_all r then Some (sgm, outm, g) else None
                    | None => None
                    end
                | None => None
                end
            | None => None
            end
          else None
      | SFor init cond incr body =>
          if frag2 st && sideb XS cond then
            match rec (Prog (opt_list init)) sg with
            | Some (sg1, o1, SN) =>
                match rec (Loop true cond incr body) sg1 with
                | Some (sg2, o2, SN) => then_rest r sg2 (o1 ++ o2)
                | Some (sg2, o2, SR rv) => if frag2_all r then Some (sg2, o1 ++ o2, SR rv) else None
                | _ => None
                end
            | _ => None
            end
          else None
      | _ => None
      end
  | Loop first cond incr body =>
      match rec (Prog (incr_of first incr)) sg with
      | Some (sg1, o1, SN) =>
          match peval sg1 cond with
          | Some (VBool false) => Some (sg1, o1, SN)
          | Some (VBool true) =>
              match rec (Prog body) sg1 with
              | Some (sg2, o2, SB) => Some (sg2, o1 ++ o2, SN)
              | Some (sg2, o2, SR rv) => Some (sg2, o1 ++ o2, SR rv)
              | Some (sg2, o2, _) =>
                  match rec (Loop false cond incr body) sg2 with
                  | Some (sg3, o3, g3) => Some (sg3, o1 ++ o2 ++ o3, g3)
                  | None => None
                  end
              | None => None
              end
          | _ => None
          end
      | _ => None
      end
  end.
End Step.

Fixpoint jrun (fuel : nat) (XS : list var) (jc : jcall_t) (c : code) (sg : senv) : option jres :=
  match fuel with O => None | S f => jstep XS jc (jrun f XS jc) c sg end.

Section Sound.
Variable scall : list var -> bytes -> list value -> senv -> list value -> senv -> bytes -> Prop.
Variable XS : list var.
Variable jc : jcall_t.
Hypothesis Hjc : forall f vals sg rvals sg1 o, jc f vals sg = Some (rvals, sg1, o) -> env_ok sg -> scall XS f vals sg rvals sg1 o /\ env_ok sg1.

Section OneStep.
Variable rec : code -> senv -> option jres.
Hypothesis Hrec : forall c sg sg' out g, rec c sg = Some (sg', out, g) -> env_ok sg -> J scall XS c sg sg' out g.

Lemma rec_sound c sg sg' out g : rec c sg = Some (sg', out, g) -> env_ok sg -> J scall XS c sg sg' out g /\ env_ok sg'.
Proof. intros H He. pose proof (Hrec _ _ _ _ _ H He) as HJ. exact (conj HJ (J_env _ _ _ _ _ _ _ HJ He)). Qed.

Lemma then_rest_sound r sg pre sg' out g : then_rest rec r sg pre = Some (sg', out, g) -> env_ok sg ->
  exists out', out = pre ++ out' /\ J scall XS (Prog r) sg sg' out' g.
Proof.
  unfold then_rest. intros H He. opn3 H sg1 o g1. injection H as <- <- <-. exists o. exact (conj eq_refl (Hrec _ _ _ _ _ E He)).
Qed.

Lemma assign_step_sound (defn : bool) xs es r sg sg' out g :
  j_assign_step XS rec xs es r sg = Some (sg', out, g) -> env_ok sg ->
  J scall XS (Prog ((if defn then SVarDef xs es else SAssign xs es) :: r)) sg sg' out g.
Proof.
  intros H He. unfold j_assign_step in H.
  (* every shape of xs, es but [x], [e] leaves the second branch *)
  assert (Multi : (if forallb pure es && forallb (sideb XS) es && forallb (fun x => inb x XS) xs && (2 <=? length xs)%nat && Nat.eqb (length es) (length xs)
                   then match pevals sg es with Some vals => if typed_all vals xs then rec (Prog r) (assign_all sg xs vals) else None | None => None end
                   else None) = Some (sg', out, g) ->
                  J scall XS (Prog ((if defn then SVarDef xs es else SAssign xs es) :: r)) sg sg' out g).
  { intro M. cnd M. opv M vals. cnd M. ands E. apply Nat.eqb_eq in A. apply Nat.leb_le in A0.
    pose proof (inb_all _ _ A1) as Hxs. pose proof (sidesb_ok _ _ A2) as Hes.
    destruct (typed_all_ok xs vals sg He E1) as [Henv _]. pose proof (Hrec _ _ _ _ _ M Henv) as HJ.
    destruct defn; [apply (j_define_multi scall XS sg xs es vals)|apply (j_assign_multi scall XS sg xs es vals)]; assumption. }
  destruct xs as [|x [|x2 xr]]; [exact (Multi H)| |exact (Multi H)].
  destruct es as [|e [|e2 er]]; [exact (Multi H)| |exact (Multi H)].
  cnd H. opv H v. cnd H. ands E. apply inb_In in A. apply sideb_ok in A0.
  pose proof (typedb_ok sg x v He E1) as Henv. pose proof (Hrec _ _ _ _ _ H Henv) as HJ.
  destruct defn; [apply (j_define scall XS sg x e v)|apply (j_assign scall XS sg x e v)]; assumption.
Qed.

Lemma call_step_sound (defn : bool) xs call r sg sg' out g :
  j_call_step XS jc rec xs call r sg = Some (sg', out, g) -> env_ok sg ->
  J scall XS (Prog ((if defn then SVarDefCall xs call else SAssignCall xs call) :: r)) sg sg' out g.
Proof.
  intros H He. unfold j_call_step in H. destruct call; try discriminate.
  cnd H. opv H vals. opn3 H rvals sg1 o. cnd H. ands E. apply Nat.eqb_eq in A.
  pose proof (inb_all _ _ A0) as Hxs. pose proof (sidesb_ok _ _ A1) as Hes.
  destruct (Hjc _ _ _ _ _ _ E1 He) as [Hsc He1]. destruct (typed_all_ok xs rvals sg1 He1 E2) as [Henv Hlen].
  destruct (then_rest_sound _ _ _ _ _ _ H Henv) as (out' & -> & HJ).
  destruct defn; [apply (j_call_define_multi scall XS sg xs name rets args vals rvals sg1)
                 |apply (j_call_assign_multi scall XS sg xs name rets args vals rvals sg1)]; assumption.
Qed.

Lemma jstep_sound c sg sg' out g : jstep XS jc rec c sg = Some (sg', out, g) -> env_ok sg -> J scall XS c sg sg' out g.
Proof.
  intros H He. destruct c as [body|first cond incr body].
  - destruct body as [|st r]; [cbn [jstep] in H; injection H as <- <- <-; apply j_nil|].
    destruct st; cbn [jstep] in H; try discriminate.
    + exact (assign_step_sound true vars vals r sg sg' out g H He).
    + exact (call_step_sound true vars call r sg sg' out g H He).
    + exact (assign_step_sound false vars vals r sg sg' out g H He).
    + exact (call_step_sound false vars call r sg sg' out g H He).
    + (* SReturn *) cnd H. opv H rvals. ands E. injection H as <- <- <-.
      exact (j_return scall XS sg vals rvals r E (sidesb_ok _ _ A0) E0 A).
    + (* SIf *) destruct branches as [|[c0 b0] elifs]; [discriminate|].
      cnd H. opv H cvals. opv H bools. opn3 H sgm outm gm. ands E.
      pose proof (bools_of_ok _ _ E1) as ->.
      pose proof (forallb_ok _ (fun cb => side XS (fst cb)) (fun cb => sideb_ok XS (fst cb)) _ A) as Hsides.
      destruct (rec_sound _ _ _ _ _ E2 He) as [HJb Hem].
      destruct (is_SN gm) eqn:Eg.
      * destruct gm; try discriminate.
        destruct (then_rest_sound _ _ _ _ _ _ H Hem) as (out' & -> & HJ).
        exact (j_if_next scall XS sg c0 b0 elifs els bools sgm outm r sg' out' g E Hsides E0 HJb HJ).
      * cnd H. injection H as <- <- <-.
        apply (j_if_stop scall XS sg c0 b0 elifs els bools sgm outm r gm E Hsides E0 HJb); [|exact E3].
        intros ->. discriminate.
    + (* SFor *) cnd H. ands E. opn3 H sg1 o1 g1. destruct g1; try discriminate.
      destruct (rec_sound _ _ _ _ _ E0 He) as [HJi He1].
      opn3 H sg2 o2 g2. destruct (rec_sound _ _ _ _ _ E1 He1) as [HJl He2].
      destruct g2; try discriminate.
      * destruct (then_rest_sound _ _ _ _ _ _ H He2) as (out' & -> & HJ). rewrite <- app_assoc.
        exact (j_for scall XS sg init cond incr body sg1 o1 sg2 o2 r sg' out' g E (sideb_ok _ _ A) HJi HJl HJ).
      * cnd H. injection H as <- <- <-.
        exact (j_for_return scall XS sg init cond incr body sg1 o1 sg2 o2 rvals r E (sideb_ok _ _ A) E2 HJi HJl).
    + (* SBreak *) cnd H. injection H as <- <- <-. exact (j_break scall XS sg r E).
    + (* SContinue *) cnd H. injection H as <- <- <-. exact (j_continue scall XS sg r E).
    + (* SPrint *) cnd H. opv H pvals. ands E.
      destruct (then_rest_sound _ _ _ _ _ _ H He) as (out' & -> & HJ). rewrite <- app_assoc.
      exact (j_print scall XS sg es pvals r sg' out' g E (sidesb_ok _ _ A) E0 HJ).
    + (* SExpr *) destruct e; try discriminate. cnd H. opv H avals. opn3 H rvals sg1 o. ands E.
      destruct (Hjc _ _ _ _ _ _ E1 He) as [Hsc He1].
      destruct (then_rest_sound _ _ _ _ _ _ H He1) as (out' & -> & HJ).
      exact (j_call_stmt scall XS sg name rets args avals rvals sg1 o r sg' out' g E (sidesb_ok _ _ A) E0 Hsc He1 HJ).
  - cbn [jstep] in H. opn3 H sg1 o1 g1. destruct g1; try discriminate.
    destruct (rec_sound _ _ _ _ _ E He) as [HJi He1].
    opv H v. destruct v; try discriminate. destruct b.
    + opn3 H sg2 o2 gb. destruct (rec_sound _ _ _ _ _ E1 He1) as [HJb He2].
      destruct gb.
      * opn3 H sg3 o3 g3. injection H as <- <- <-.
        exact (l_next scall XS first cond incr body sg sg1 o1 sg2 o2 SN sg3 o3 g3 HJi E0 HJb (or_introl eq_refl) (Hrec _ _ _ _ _ E2 He2)).
      * injection H as <- <- <-. exact (l_break scall XS first cond incr body sg sg1 o1 sg2 o2 HJi E0 HJb).
      * opn3 H sg3 o3 g3. injection H as <- <- <-.
        exact (l_next scall XS first cond incr body sg sg1 o1 sg2 o2 SC sg3 o3 g3 HJi E0 HJb (or_intror eq_refl) (Hrec _ _ _ _ _ E2 He2)).
      * injection H as <- <- <-. exact (l_return scall XS first cond incr body sg sg1 o1 sg2 o2 rvals HJi E0 HJb).
    + injection H as <- <- <-. exact (l_exit scall XS first cond incr body sg sg1 o1 HJi E0).
Qed.
End OneStep.

Theorem jrun_sound : forall fuel c sg res, jrun fuel XS jc c sg = Some res -> env_ok sg ->
  let '(sg', out, g) := res in J scall XS c sg sg' out g.
Proof.
  induction fuel as [|f IH]; intros c sg [[sg' out] g] H He; [discriminate|].
  exact (jstep_sound (jrun f XS jc) (fun c sg sg' out g => IH c sg (sg', out, g)) c sg sg' out g H He).
Qed.
End Sound.

(* the caller's globals are exactly the callee's *)
Definition agreeb (XS XSf : list var) : bool :=
  forallb (fun x => negb (v_global x) || inb x XSf) XS && forallb (fun x => negb (v_global x) || inb x XS) XSf.
Lemma agreeb_ok XS XSf : agreeb XS XSf = true -> forall x, v_global x = true -> (In x XS <-> In x XSf).
Proof.
  unfold agreeb. intro H. ands H. rewrite forallb_forall in H, A. intros x Hg. split; intro Hx.
  - specialize (H x Hx). rewrite Hg in H. exact (inb_In _ _ H).
  - specialize (A x Hx). rewrite Hg in A. exact (inb_In _ _ A).
Qed.

Fixpoint jcall_at (defs : list fdef) (fuel d klo mlo : nat) (XS : list var) : jcall_t :=
  match d with
  | O => fun _ _ _ => None
  | S d' => fun f vals sg =>
      match find (fun F => beq (fd_name F) f) defs with
      | Some F =>
          if (fd_num F <? mlo)%nat && (b_for_counter (fd_sr F) <=? klo)%nat && agreeb XS (fd_vars F) && typed_all vals (fd_params F) then
            match jrun fuel (fd_vars F) (jcall_at defs fuel d' (b_for_counter (fd_sf F)) (fd_num F) (fd_vars F)) (Prog (fd_body F))
                       (bind (fd_params F) vals (globals_of sg)) with
            | Some (sgl, o, SR rvals) => Some (rvals, leave sg sgl, o)
            | Some (sgl, o, SN) => Some ([], leave sg sgl, o)
            | _ => None
            end
          else None
      | None => None
      end
  end.

(* the executable calls are source calls of Sem/CallPreserve.v *)
Theorem jcall_at_sound defs fuel : forall d klo mlo XS f vals sg rvals sg1 o,
  jcall_at defs fuel d klo mlo XS f vals sg = Some (rvals, sg1, o) -> env_ok sg ->
  scall_at defs d klo mlo XS f vals sg rvals sg1 o /\ env_ok sg1.
Proof.
  induction d as [|d IH]; intros klo mlo XS f vals sg rvals sg1 o H He; [discriminate|].
  cbn [jcall_at] in H. opv H F. destruct (find_some _ _ E) as [HF Hn]. apply beq_eq in Hn.
  cnd H. ands E0. apply Nat.ltb_lt in E0. apply Nat.leb_le in A1.
  destruct (typed_all_ok (fd_params F) vals (globals_of sg) (env_ok_globals sg He) A) as [Henv0 Hlen]. rewrite <- bind_assign_all in Henv0.
  opn3 H sgl o0 g. pose proof (jrun_sound _ _ _ (IH _ _ _) fuel _ _ _ E1 Henv0) as HJ. cbn iota in HJ.
  assert (Hr : ret_of g rvals /\ leave sg sgl = sg1 /\ o0 = o).
  { destruct g; try discriminate; injection H as <- <- <-.
    - exact (conj (or_intror (conj eq_refl eq_refl)) (conj eq_refl eq_refl)).
    - exact (conj (or_introl eq_refl) (conj eq_refl eq_refl)). }
  destruct Hr as (Hr & <- & <-). split; [|exact (env_ok_leave sg sgl He (J_env _ _ _ _ _ _ _ HJ Henv0))].
  exists F, sgl, g.
  exact (conj HF (conj Hn (conj E0 (conj A1 (conj (agreeb_ok _ _ A0) (conj Hlen (conj Henv0 (conj HJ (conj Hr eq_refl))))))))).
Qed.

Theorem jrun_program_sound defs fuel d klo mlo XS c sg sg' out g :
  jrun fuel XS (jcall_at defs fuel d klo mlo XS) c sg = Some (sg', out, g) -> env_ok sg ->
  J (scall_at defs d klo mlo) XS c sg sg' out g.
Proof. exact (jrun_sound (scall_at defs d klo mlo) XS _ (jcall_at_sound defs fuel d klo mlo XS) fuel c sg (sg', out, g)). Qed.

Fixpoint expr_vars (e : expr) : list var :=
  let all := fix all (l : list expr) : list var := match l with [] => [] | x :: r => expr_vars x ++ all r end in
  match e with
  | EBool _ | EInt _ | EStr _ => []
  | EVar v => [v]
  | EUnary x | EGroup x | ELen x | EItoa x | EExists x | ERead x => expr_vars x
  | EBinary l _ r | ECompare l _ r | ELogical l _ r => expr_vars l ++ expr_vars r
  | ECall _ _ args => all args
  | EApp calls => (fix ac (l : list (bytes * list expr)) : list var := match l with [] => [] | c :: r => all (snd c) ++ ac r end) calls
  | ESliceInst _ vals => all vals
  | ESliceEval v i _ => expr_vars v ++ expr_vars i
  | ESubscript v a b => expr_vars v ++ expr_vars a ++ match b with Some x => expr_vars x | None => [] end
  | EInput p => match p with Some x => expr_vars x | None => [] end
  | ECopy d s => d :: expr_vars s
  end.

Fixpoint stmt_vars (st : stmt) : list var :=
  let all := fix all (l : list stmt) : list var := match l with [] => [] | x :: r => stmt_vars x ++ all r end in
  let evs := fix evs (l : list expr) : list var := match l with [] => [] | x :: r => expr_vars x ++ evs r end in
  match st with
  | SVarDef xs es | SAssign xs es => xs ++ evs es
  | SVarDefCall xs c | SAssignCall xs c => xs ++ expr_vars c
  | SSliceAssign v i x => v :: expr_vars i ++ expr_vars x
  | SFunc _ _ params body _ => params ++ all body
  | SReturn es | SPrint es => evs es
  | SIf brs els => (fix ab (l : list (expr * list stmt)) : list var := match l with [] => [] | b :: r => expr_vars (fst b) ++ all (snd b) ++ ab r end) brs ++ all els
  | SFor i c n body => (match i with Some x => stmt_vars x | None => [] end) ++ expr_vars c ++ (match n with Some x => stmt_vars x | None => [] end) ++ all body
  | SBreak | SContinue => []
  | SPanic e | SExpr e => expr_vars e
  | SWrite p d a => expr_vars p ++ expr_vars d ++ expr_vars a
  end.
Fixpoint stmts_vars (l : list stmt) : list var := match l with [] => [] | x :: r => stmt_vars x ++ stmts_vars r end.

Definition st_of (r : tres bstate unit) : option bstate := match r with TOk _ s => Some s | _ => None end.

(* run the program item by item: a definition is translated and recorded, a statement is run by the interpreter with the
   definitions seen so far (the bounds klo, mlo are those of the converter state at the statement).  40 is how deep
   calls may nest: the depth of jcall_at here and of the oracle call_of in Sem/ProgramPreserve.v; a program that nests
   them deeper gets no answer *)
Fixpoint jtop (fuel : nat) (G : list var) (items : list stmt) (s : bstate) (defs : list fdef) (sg : senv) (out : bytes) : option bytes :=
  match items with
  | [] => Some out
  | SFunc f rets params body pub :: r =>
      let sf := cv_func_start bstate atom bash_conv f (map v_name params) rets s in
      match st_of (go_fix body sf), st_of (t_stmt bash_conv (SFunc f rets params body pub) s) with
      | Some sr, Some s' =>
          jtop fuel G r s' (defs ++ [mkFdef f params body (G ++ filter (fun x => negb (v_global x)) (params ++ stmts_vars body)) sf sr]) sg out
      | _, _ => None
      end
  | st :: r =>
      match st_of (t_stmt bash_conv st s) with
      | Some s' =>
          match jrun fuel G (jcall_at defs fuel 40 (b_for_counter s) (S (b_func_counter s)) G) (Prog [st]) sg with
          | Some (sg', o, SN) => jtop fuel G r s' defs sg' (out ++ o)
          | _ => None
          end
      | None => None
      end
  end.

(* every variable of the program that is global or used at top level *)
Definition prog_vars (body : list stmt) : list var :=
  stmts_vars (filter (fun st => match st with SFunc _ _ _ _ _ => false | _ => true end) body) ++ filter v_global (stmts_vars body).

(* the whole program from the converter's initial state *)
Definition jprogram (fuel : nat) (body : list stmt) : option bytes :=
  jtop fuel (prog_vars body) body (cv_program_start bstate atom bash_conv b_init) [] (fun _ => None) [].
