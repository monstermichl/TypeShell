From Verif Require Import Base.Bytestr Cli.Tsh.
Open Scope N_scope.

Lemma find_write p q c fs :
  fs_find p (fs_write q c fs) = if beq p q then Some (File c) else fs_find p fs.
Proof.
  induction fs as [|[r n] fs IH]; cbn [fs_write fs_find].
  - destruct (beq p q); reflexivity.
  - destruct (beq q r) eqn:Eqr; cbn [fs_find].
    + apply beq_eq in Eqr. subst r. destruct (beq p q); reflexivity.
    + destruct (beq p r) eqn:Epr.
      * apply beq_eq in Epr. subst r. destruct (beq p q) eqn:Epq; [|reflexivity].
        apply beq_eq in Epq. subst q. rewrite beq_refl in Eqr. discriminate.
      * exact IH.
Qed.

Lemma out_path_split o t :
  out_path o t = join_out (o_out o) (stem (base (o_in o)) ++ [46]) ++ extension t.
Proof.
  unfold out_path, join_out.
  destruct (beq (o_out o) [46]); repeat (rewrite <- app_assoc; cbn [app]); reflexivity.
Qed.

Lemma out_path_inj o t1 t2 : out_path o t1 = out_path o t2 -> t1 = t2.
Proof.
  rewrite !out_path_split. intro H. apply app_inv_head in H.
  destruct t1, t2; (reflexivity || discriminate).
Qed.

Section Lib.
  Variable lib : bytes -> target -> option bytes.

  Lemma emit_all_ok o ts : forall fs,
    (forall t, In t ts -> lib (o_in o) t <> None) ->
    snd (emit_all lib o ts fs) = Exit0 /\
    forall p, fs_find p (fst (emit_all lib o ts fs)) =
              match find (fun t => beq p (out_path o t)) ts with
              | Some t => match lib (o_in o) t with Some s => Some (File s) | None => None end
              | None => fs_find p fs
              end.
  Proof.
    induction ts as [|t ts IH]; intros fs Hall; cbn [emit_all].
    - split; [reflexivity|intro p; reflexivity].
    - destruct (lib (o_in o) t) as [s|] eqn:El; [|exfalso; apply (Hall t); [left; reflexivity|exact El]].
      destruct (IH (fs_write (out_path o t) s fs)) as [H1 H2]; [intros t' Ht'; apply Hall; right; exact Ht'|].
      split; [exact H1|]. intro p. rewrite H2. cbn [find].
      destruct (find (fun t0 => beq p (out_path o t0)) ts) as [t'|] eqn:Ef.
      + destruct (beq p (out_path o t)) eqn:Ep; [|reflexivity].
        apply find_some in Ef as [_ Ep']. apply beq_eq in Ep, Ep'. rewrite Ep in Ep'.
        apply out_path_inj in Ep'. subst t'. rewrite El. reflexivity.
      + rewrite find_write. destruct (beq p (out_path o t)); [rewrite El|]; reflexivity.
  Qed.

  Lemma emit_all_untouched o ts : forall fs p,
    (forall t, In t ts -> lib (o_in o) t <> None -> p <> out_path o t) ->
    fs_find p (fst (emit_all lib o ts fs)) = fs_find p fs.
  Proof.
    induction ts as [|t ts IH]; intros fs p Hp; cbn [emit_all]; [reflexivity|].
    destruct (lib (o_in o) t) as [s|] eqn:El; [|reflexivity].
    rewrite IH by (intros t' Ht'; apply Hp; right; exact Ht'). rewrite find_write.
    destruct (beq p (out_path o t)) eqn:E; [|reflexivity].
    apply beq_eq in E. exfalso. apply (Hp t); [left; reflexivity|congruence|exact E].
  Qed.

  Lemma emit_all_exit o ts : forall fs t,
    In t ts -> lib (o_in o) t = None -> snd (emit_all lib o ts fs) = ExitPanic.
  Proof.
    induction ts as [|t0 ts IH]; intros fs t Hin Hf; [contradiction|]. cbn [emit_all].
    destruct (lib (o_in o) t0) eqn:El; [|reflexivity].
    destruct Hin as [->|Hin]; [congruence|]. exact (IH _ t Hin Hf).
  Qed.

  Lemma find_set_equiv o p ts1 ts2 :
    (forall t, In t ts1 <-> In t ts2) ->
    find (fun t => beq p (out_path o t)) ts1 = find (fun t => beq p (out_path o t)) ts2.
  Proof.
    intro Heq.
    destruct (find (fun t => beq p (out_path o t)) ts1) as [t1|] eqn:E1;
    destruct (find (fun t => beq p (out_path o t)) ts2) as [t2|] eqn:E2; try reflexivity.
    - apply find_some in E1 as [_ A]. apply find_some in E2 as [_ B]. apply beq_eq in A, B.
      rewrite A in B. apply out_path_inj in B. congruence.
    - apply find_some in E1 as [I A]. apply Heq in I. eapply find_none in E2; [|exact I]. cbv beta in E2. congruence.
    - apply find_some in E2 as [I A]. apply Heq in I. eapply find_none in E1; [|exact I]. cbv beta in E1. congruence.
  Qed.
End Lib.
