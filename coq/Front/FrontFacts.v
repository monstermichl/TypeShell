(* Facts about the parser model used by C12 and C09. *)
From Verif Require Import Base.Bytestr Lex.LexModel Front.Squeeze Front.Ast Front.FrontModel.
Open Scope N_scope.

(* the main file (imported = false) enters the parser only through its normalised token list *)
Lemma parse_entry_tokens E depth stack inc path fe1 fe2 :
  parser_input (tokenize (fe_content fe1)) = parser_input (tokenize (fe_content fe2)) ->
  parse_entry E depth stack inc path false fe1 = parse_entry E depth stack inc path false fe2.
Proof. intro H. destruct depth as [|d]; [reflexivity|]. cbn [parse_entry]. rewrite H. reflexivity. Qed.

Definition succs (u : list (bytes * list bytes)) (x : bytes) : list bytes :=
  match aget x u with Some l => l | None => [] end.

Lemma mem_In k l : mem k l = true <-> In k l.
Proof.
  induction l as [|x l IH]; simpl; [split; [discriminate|tauto]|].
  rewrite orb_true_iff, IH, beq_eq. split; intros [H|H]; auto.
Qed.

Lemma reach_cons u f x w seen :
  reach u (S f) (x :: w) seen
  = if mem x seen then reach u f w seen else reach u f (succs u x ++ w) (x :: seen).
Proof. cbn [reach]. unfold succs. destruct (aget x u); reflexivity. Qed.

Lemma reach_closed u : forall fuel work seen R,
  reach u fuel work seen = Some R ->
  (forall x y, In x seen -> In y (succs u x) -> In y seen \/ In y work) ->
  (forall x, In x seen -> In x R) /\ (forall x, In x work -> In x R) /\
  (forall x y, In x R -> In y (succs u x) -> In y R).
Proof.
  induction fuel as [|f IH]; intros work seen R HR Hc; destruct work as [|w ws]; try discriminate HR.
  (* nothing left to do: seen is closed already *)
  1, 2: injection HR as <-; split; [auto|]; split; [intros x []|];
        intros x y Hx Hy; destruct (Hc x y Hx Hy) as [H|[]]; exact H.
  rewrite reach_cons in HR. destruct (mem w seen) eqn:Em.
  - apply mem_In in Em. destruct (IH ws seen R HR) as (A & B & C).
    { intros a b Ha Hb. destruct (Hc a b Ha Hb) as [H|[<-|H]]; auto. }
    split; [exact A|]. split; [|exact C]. intros x [<-|Hx]; [apply A, Em|apply B, Hx].
  - destruct (IH _ _ R HR) as (A & B & C).
    { intros a b [<-|Ha] Hb; [right; apply in_or_app; left; exact Hb|].
      destruct (Hc a b Ha Hb) as [H|[<-|H]].
      - left. right. exact H.
      - left. left. reflexivity.
      - right. apply in_or_app. right. exact H. }
    split; [intros x Hx; apply A; right; exact Hx|]. split; [|exact C].
    intros x [<-|Hx]; [apply A; left; reflexivity|apply B, in_or_app; right; exact Hx].
Qed.

(* reachability in the recorded call graph, starting from the callees of top-level code *)
Inductive reachable (u : list (bytes * list bytes)) : bytes -> Prop :=
| reach_top : forall y, In y (succs u []) -> reachable u y
| reach_step : forall x y, reachable u x -> In y (succs u x) -> reachable u y.

(* getUsedFuncs keeps everything reachable (C09) *)
Theorem used_funcs_complete u keep :
  used_funcs u = Some keep -> forall f, reachable u f -> In f keep.
Proof.
  unfold used_funcs. intros H f Hr.
  apply reach_closed in H; [|intros x y []].
  destruct H as (_ & B & C).
  induction Hr as [y Hy|x y _ IH Hy]; [apply B; exact Hy|eapply C; eassumption].
Qed.

(* cleanProgram keeps every definition of a reachable function *)
Theorem clean_keeps_reachable u body body' name rets params fb pub :
  clean_program u body = Some body' ->
  In (SFunc name rets params fb pub) body -> reachable u name ->
  In (SFunc name rets params fb pub) body'.
Proof.
  unfold clean_program. destruct (used_funcs u) as [keep|] eqn:E; [|discriminate].
  intros H Hin Hr. inversion H; subst. apply filter_In. split; [exact Hin|].
  apply mem_In. eapply used_funcs_complete; eassumption.
Qed.

Theorem clean_keeps_statements u body body' s :
  clean_program u body = Some body' -> In s body ->
  (match s with SFunc _ _ _ _ _ => False | _ => True end) -> In s body'.
Proof.
  unfold clean_program. destruct (used_funcs u) as [keep|]; [|discriminate].
  intros H Hin Hs. inversion H; subst. apply filter_In. split; [exact Hin|]. destruct s; try reflexivity; contradiction.
Qed.

Lemma aget_aset_same {V} k (v : V) m : aget k (aset k v m) = Some v.
Proof. induction m as [|[k' v'] m IH]; simpl; [rewrite beq_refl; reflexivity|].
  destruct (beq k k') eqn:E; simpl; [rewrite beq_refl; reflexivity|rewrite E; exact IH]. Qed.

Lemma aget_aset_other {V} k k' (v : V) m : k <> k' -> aget k (aset k' v m) = aget k m.
Proof.
  intro Hn. induction m as [|[k2 v2] m IH]; simpl.
  - destruct (beq k k') eqn:E; [apply beq_eq in E; contradiction|reflexivity].
  - destruct (beq k' k2) eqn:E2; simpl.
    + apply beq_eq in E2. subst k2. destruct (beq k k') eqn:E; [apply beq_eq in E; contradiction|reflexivity].
    + destruct (beq k k2); [reflexivity|exact IH].
Qed.

Definition merge_one (acc : list (bytes * list bytes)) (kv : bytes * list bytes) : list (bytes * list bytes) :=
  let '(k, l) := kv in
  match aget k acc with
  | None => aset k l acc
  | Some found => aset k (found ++ filter (fun x => negb (mem x found)) l) acc
  end.

Lemma merge_used_fold mine theirs : merge_used mine theirs = fold_left merge_one theirs mine.
Proof. reflexivity. Qed.

Definition edge (m : list (bytes * list bytes)) (k x : bytes) : Prop :=
  exists l, aget k m = Some l /\ In x l.

Lemma merge_one_has acc k l x : In x l -> edge (merge_one acc (k, l)) k x.
Proof.
  intro Hx. unfold merge_one, edge. destruct (aget k acc) as [found|] eqn:E; rewrite aget_aset_same.
  - eexists. split; [reflexivity|]. apply in_or_app. destruct (mem x found) eqn:Em.
    + left. apply mem_In. exact Em.
    + right. apply filter_In. split; [exact Hx|]. rewrite Em. reflexivity.
  - eexists. split; [reflexivity|exact Hx].
Qed.

Lemma merge_one_mono acc kv k x : edge acc k x -> edge (merge_one acc kv) k x.
Proof.
  destruct kv as [k2 l2]. intros (l & Hg & Hx). unfold merge_one, edge. destruct (beq k k2) eqn:E.
  - apply beq_eq in E. subst k2. rewrite Hg, aget_aset_same.
    eexists. split; [reflexivity|]. apply in_or_app. left. exact Hx.
  - assert (k <> k2) as Hn by (intros ->; rewrite beq_refl in E; discriminate).
    destruct (aget k2 acc); rewrite aget_aset_other by exact Hn; eauto.
Qed.

Lemma fold_mono theirs : forall acc k x, edge acc k x -> edge (fold_left merge_one theirs acc) k x.
Proof. induction theirs as [|kv theirs IH]; intros acc k x H; [exact H|]. apply IH, merge_one_mono, H. Qed.

(* the merged call graph has the edges of both; keys may repeat in either *)
Theorem merge_used_keeps mine theirs k x :
  edge mine k x \/ edge theirs k x -> edge (merge_used mine theirs) k x.
Proof.
  rewrite merge_used_fold. intros [H|H]; [apply fold_mono, H|]. revert mine H.
  induction theirs as [|[k2 l2] theirs IH]; intros mine (l & Hg & Hx); [discriminate|].
  cbn [fold_left]. simpl in Hg. destruct (beq k k2) eqn:E.
  - apply beq_eq in E. subst k2. injection Hg as ->. apply fold_mono, merge_one_has, Hx.
  - apply IH. exists l. auto.
Qed.
