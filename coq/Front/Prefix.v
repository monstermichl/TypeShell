(* The lexer and the statement loop of the block parser run over a known prefix of their input, with what follows the
   prefix a variable: where a family of programs shares its first lines, those are lexed and parsed once. *)
From Verif Require Import Base.Bytestr gen.Tables Lex.LexModel Lex.LexLayout Front.Squeeze Front.Ast Front.FrontModel.
Open Scope N_scope.

(* the lexer's loop without positions: fuel left, input left, tokens so far (newest first) *)
Fixpoint lex_steps (k : nat) (s : bytes) (acc : list ptoken) : option (nat * bytes * list ptoken) :=
  match k, s with
  | S k', _ :: _ =>
      match lex_step s with
      | StepTok t v rest => lex_steps k' rest (if dropped t then acc else (t, v) :: acc)
      | StepErr => None
      end
  | _, _ => Some (k, s, acc)
  end.

(* what parser.parse gets when the loop has reached the end of the input: EOF appended, newlines squeezed *)
Definition lexed_tokens (r : option (nat * bytes * list ptoken)) : option (list ptoken) :=
  match r with Some (_, [], acc) => Some (squeeze (rev ((EOF, []) :: acc))) | _ => None end.

Lemma lex_loop_steps fuel : forall s rc acc,
  parser_input (lex_loop fuel s rc acc) = lexed_tokens (lex_steps fuel s (map strip_tok acc)).
Proof.
  induction fuel as [|f IH]; intros s rc acc; destruct s as [|c r];
    try (cbn [lex_loop lex_steps parser_input lexed_tokens]; rewrite map_rev; reflexivity).
  - reflexivity.
  - cbn [lex_loop lex_steps]. destruct (lex_step (c :: r)) as [t v rest|]; [|reflexivity].
    rewrite IH. destruct (dropped t); reflexivity.
Qed.

Lemma lex_steps_add k : forall m s acc,
  lex_steps (k + m) s acc =
  match lex_steps k s acc with Some (k', s', acc') => lex_steps (k' + m) s' acc' | None => None end.
Proof.
  induction k as [|k IH]; intros m s acc; [reflexivity|]. destruct s as [|c r]; [reflexivity|].
  cbn [Nat.add lex_steps]. destruct (lex_step (c :: r)); [apply IH|reflexivity].
Qed.

(* lexing pre takes k of the S (length pre) steps tokenize allows and yields toks, whatever follows pre *)
Definition lexed (pre : bytes) (k left : nat) (toks : list ptoken) : Prop :=
  no_cr pre = true /\ S (length pre) = (k + left)%nat /\
  forall t, lex_steps k (pre ++ t) [] = Some (O, t, toks).

Lemma lexed_nil : lexed [] 0 1 [].
Proof. repeat split. Qed.

(* the statements of a file without imports are parsed in this context (parse_entry: add_import of the empty prefix) *)
Definition main_ctx : ctx := add_import new_ctx [] [].

(* the statement loop of p_block_content: context, statements so far, rounds left *)
Definition loop_t := ctx -> list stmt -> nat -> P (list stmt).

Definition start (ptoks : list ptoken) : ctx * list stmt * pstate := (push_scope main_ctx ScProgram, [], mkPS ptoks [] []).

(* One round of the loop in p_block_content, with the loop itself (the recursive call) a parameter: the loop is a local
   fixpoint there, so the round is cut out of the unfolded definition; block_loop_spec says that this is the right cut. *)
Definition round : nat -> loop_t -> loop_t.
Proof.
  intros f loop c acc n s.
  let t := eval cbn [p_block_content] in (p_block_content [] [EOF] no_callback c ScProgram (S f) s) in
  match t with ?FX _ _ _ _ =>
    let b := eval lazy beta iota in (FX c acc (S n) s) in
    let g := eval pattern FX in b in
    match g with ?h _ => exact (h loop) end
  end.
Defined.

Definition block_loop (f : nat) : loop_t :=
  fix loop c acc n := match n with O => nofuel | S n' => round f loop c acc n' end.

Lemma block_loop_spec f c0 s :
  p_block_content [] [EOF] no_callback c0 ScProgram (S f) s = block_loop f (push_scope c0 ScProgram) [] f s.
Proof. cbn [p_block_content]. unfold block_loop. reflexivity. Qed.

Definition at_state (R : list ptoken) (st : pstate) : pstate := mkPS (toks st ++ R) (curr_func st) (used st).

(* successive states of the loop (context, statements so far, parser state on the prefix alone): each round leads from one
   to the next, for every continuation of the loop and of the token list *)
Fixpoint chain (f : nat) (R : list ptoken) (tr : list (ctx * list stmt * pstate)) : Prop :=
  match tr with
  | (c, acc, st) :: (((c', acc', st') :: _) as r) =>
      (forall X n, round f X c acc n (at_state R st) = X c' acc' n (at_state R st')) /\ chain f R r
  | _ => True
  end.

(* the last element, the default running along (List.last keeps one default, which the induction below cannot use) *)
Fixpoint final {A} (l : list A) (d : A) : A := match l with [] => d | x :: r => final r x end.

Lemma chain_loop f R : forall tr c acc st n, chain f R ((c, acc, st) :: tr) ->
  block_loop f c acc (length tr + n)%nat (at_state R st) =
  (let '(c', acc', st') := final tr (c, acc, st) in block_loop f c' acc' n (at_state R st')).
Proof.
  induction tr as [|[[c1 a1] s1] tr IH]; intros c acc st n H; [reflexivity|]. destruct H as [H1 H2].
  change (block_loop f c acc (length ((c1, a1, s1) :: tr) + n)%nat (at_state R st))
    with (round f (block_loop f) c acc (length tr + n)%nat (at_state R st)).
  rewrite H1. exact (IH c1 a1 s1 n H2).
Qed.

Definition ptok_eqb (a b : ptoken) : bool := toktype_beq (fst a) (fst b) && beq (snd a) (snd b).

Fixpoint strip_pre (p ts : list ptoken) : option (list ptoken) :=
  match p, ts with
  | [], _ => Some ts
  | a :: p', b :: ts' => if ptok_eqb a b then strip_pre p' ts' else None
  | _ :: _, [] => None
  end.

Lemma strip_pre_app p : forall ts R, strip_pre p ts = Some R -> ts = p ++ R.
Proof.
  induction p as [|[ta va] p IH]; intros ts R H; [inversion H; reflexivity|]. destruct ts as [|[tb vb] ts]; [discriminate|].
  cbn [strip_pre] in H. destruct (ptok_eqb (ta, va) (tb, vb)) eqn:E; [|discriminate].
  apply andb_true_iff in E as [Et Ev]. apply internal_toktype_dec_bl in Et. apply beq_eq in Ev. cbn [fst snd] in Et, Ev.
  subst. cbn [app]. rewrite (IH ts R H). reflexivity.
Qed.

(* the context after a statement, as the loop of p_block_content updates it at top level *)
Definition ctx_after (c : ctx) (st : stmt) : ctx :=
  match st with
  | SVarDef vs _ | SVarDefCall vs _ => match add_vars c [] (is_global c) vs with Some c' => c' | None => c end
  | SFunc name rets params _ pub => match add_func c [] (is_global c) (mkFdef name rets params pub) with Some c' => c' | None => c end
  | _ => c
  end.

(* A candidate for the states along a prefix: one round at a time while tokens are left, the continuation handing back
   what it is given.  Nothing is claimed of it; `chain` is checked on its result. *)
Fixpoint trace_from (fuel f : nat) (c : ctx) (acc : list stmt) (st : pstate) : list (ctx * list stmt * pstate) :=
  match fuel, toks st with
  | S fuel', _ :: _ =>
      match round f (fun _ acc' _ st' => Ok acc' st') c acc f st with
      | Ok acc' st' =>
          let c' := match skipn (length acc) acc' with [x] => ctx_after c x | _ => c end in
          (c', acc', st') :: trace_from fuel' f c' acc' st'
      | _ => []
      end
  | _, _ => []
  end.

