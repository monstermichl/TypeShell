(* Misplaced constructs are rejected whatever surrounds them (C07): one-step facts about the statement parser. *)
From Verif Require Import Base.Bytestr gen.Tables Front.FrontModel.
Open Scope N_scope.

Definition starts_with (ty : toktype) (s : pstate) : Prop :=
  exists v r, toks s = (ty, v) :: r.

(* where break, continue, return and func may stand: the guard p_stmt evaluates right after eating the keyword *)
Definition placed (c : ctx) (ty : toktype) : bool :=
  match ty with
  | BREAK | CONTINUE => find_scope c ScFor
  | RETURN => find_scope c ScFunction
  | FUNCTION_DEFINITION => is_global c
  | _ => true
  end.

Lemma guard_false {A} b (k : unit -> P A) s : b = false -> bind (guard b) k s = Err.
Proof. intros ->. reflexivity. Qed.

(* The head token selects the branch of p_stmt by reduction alone, so the kernel is left to reduce p_stmt (lazily,
   one branch) down to the guard; unfolding p_stmt in the goal instead copies the whole parser into the proof term. *)
Theorem misplaced_rejected prefix c f ty s :
  starts_with ty s -> placed c ty = false -> p_stmt prefix c (S f) s = Err.
Proof.
  intros (v & r & E) H. destruct s as [tk cf us]. cbn [toks] in E. subst tk.
  destruct ty; try discriminate H; cbn [placed] in H; refine (eq_trans _ (guard_false _ _ _ H)); reflexivity.
Qed.

(* a block body is parsed with its scope pushed: inside if/switch bodies of top-level code there is no loop *)
Lemma push_scope_find c sc x : find_scope (push_scope c sc) x = find_scope c x || scope_eqb x sc.
Proof. unfold find_scope, push_scope. cbn [c_scopes]. rewrite existsb_app. simpl. rewrite orb_false_r. reflexivity. Qed.

Theorem undefined_variable_rejected prefix c s name r :
  toks s = (IDENTIFIER, name) :: r -> find_var c name prefix (is_global c) = None ->
  p_var_eval prefix c s = Err.
Proof.
  intros E Hf. unfold p_var_eval, expect, bind, eat, guard. rewrite E. cbn [nth tl fst snd].
  unfold tok_is, tt_eqb. cbn [fst toktype_beq]. cbn [ret snd]. rewrite Hf. reflexivity.
Qed.
