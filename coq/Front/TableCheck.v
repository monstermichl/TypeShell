(* Deciding a table of programs inside Coq (C06 below, C07 in Properties/C07.v): every entry is run through the model of
   the whole pipeline.
   All C06 entries begin with the same prelude, and lexing and parsing it is most of the work of an entry: both are
   done once, with whatever follows the prelude a variable (Front/Prefix.v), and an entry lexes its tail and enters the
   statement loop in the state the prelude leaves (verdict_tail). *)
From Verif Require Import Base.Bytestr gen.Tables Lex.LexModel Front.Squeeze Front.Ast Front.FrontModel
  Back.Pipeline gen.C06Table Front.Prefix.
From Coq Require Import Arith.
Open Scope N_scope.

(* one file, the main file; its import prefix (the hash the implementation computes) is never used without imports *)
Definition table_env (src : bytes) : env :=
  mkEnv [(bs "/V/main.tsh", mkFe src (bs "i0000000"))] (bs "/std").

Inductive verdict := Accepted | Rejected | Mixed.

Definition verdict_of (src : bytes) : verdict :=
  match parse_main (table_env src) (bs "/V/main.tsh") with
  | POk body _ _ _ =>
      match emit TBash body, emit TBatch body with
      | Script _, Script _ => Accepted
      | Failed, Failed => Rejected
      | _, _ => Mixed
      end
  | PErr => Rejected
  | PFuel => Mixed
  end.

(* parse_main on table_env, its lookup of the one file done (depth: one more than the number of files) *)
Definition main_entry (src : bytes) : pres :=
  parse_entry (table_env src) 2 [] [] (bs "/V/main.tsh") false (mkFe src (bs "i0000000")).

Definition both_targets (body : list stmt) : verdict :=
  match emit TBash body, emit TBatch body with
  | Script _, Script _ => Accepted
  | Failed, Failed => Rejected
  | _, _ => Mixed
  end.

Definition verdict_pres (p : pres) : verdict :=
  match p with POk body _ _ _ => both_targets body | PErr => Rejected | PFuel => Mixed end.

Lemma verdict_entry src : verdict_of src = verdict_pres (main_entry src).
Proof. reflexivity. Qed.

Lemma verdict_transpile src :
  verdict_of src = match transpile (table_env src) (bs "/V/main.tsh") TBash, transpile (table_env src) (bs "/V/main.tsh") TBatch with
                   | Script _, Script _ => Accepted
                   | Failed, Failed => Rejected
                   | _, _ => Mixed
                   end.
Proof.
  rewrite verdict_entry. unfold transpile, transpile_entry, table_env. cbn [e_fs].
  change (aget (bs "/V/main.tsh") [(bs "/V/main.tsh", mkFe src (bs "i0000000"))]) with (Some (mkFe src (bs "i0000000"))).
  cbv iota beta. change (parse_entry _ _ [] [] _ false _) with (main_entry src). destruct (main_entry src); reflexivity.
Qed.

Definition block_verdict (r : res (list stmt)) : verdict :=
  match r with
  | Ok body s =>
      match clean_program (used s) body with Some b => both_targets b | None => Mixed end
  | Err => Rejected
  | Fuel => Mixed
  end.

Lemma verdict_no_tokens src : parser_input (tokenize src) = None -> verdict_of src = Rejected.
Proof. intro E. rewrite verdict_entry. unfold main_entry. lazy beta iota delta [parse_entry fe_content]. rewrite E. reflexivity. Qed.

Lemma verdict_tokens src t r : parser_input (tokenize src) = Some (t :: r) -> tok_is t IMPORT = false ->
  verdict_of src = block_verdict (p_block_content [] [EOF] no_callback main_ctx ScProgram (tok_fuel (t :: r)) (mkPS (t :: r) [] [])).
Proof.
  intros E Et. rewrite verdict_entry. unfold main_entry. lazy beta iota delta [parse_entry fe_content]. rewrite E.
  lazy beta iota zeta delta [bind peek peek_at nth toks ret]. rewrite Et. cbn [import_filter app]. fold main_ctx.
  destruct (p_block_content [] [EOF] no_callback main_ctx ScProgram (tok_fuel (t :: r)) _) as [body s| |]; try reflexivity.
  cbn [block_verdict verdict_pres]. destruct (clean_program (used s) body); reflexivity.
Qed.

Definition entry_ok (V : bytes -> verdict) (e : bytes * bool * bytes) : bool :=
  let '(tail, acc, fnd) := e in
  match fnd with
  | [] => match V tail, acc with Accepted, true | Rejected, false => true | _, _ => false end
  | _ => true          (* entries recorded as findings are stated separately *)
  end.

Definition entry_finding (V : bytes -> verdict) (e : bytes * bool * bytes) : bool :=
  let '(tail, acc, fnd) := e in
  match fnd with
  | [] => false
  | _ => match V tail, acc with Accepted, false => true | _, _ => false end
  end.

Definition entry_finding_gen (pre : bytes) (e : bytes * bool * bytes) : bool :=
  let '(tail, acc, fnd) := e in
  match fnd with
  | [] => false
  | _ => match verdict_of (pre ++ tail), acc with Accepted, false => true | _, _ => false end
  end.

Section Generic.
  Variable pre : bytes.
  Variable table : list (bytes * bool * bytes).
  Variables (k left : nat) (toks : list ptoken).
  Hypothesis Hpre : lexed pre k left toks.
  (* the statements of pre parsed once: its tokens, and the states of the statement loop along them *)
  Variables (ptoks : list ptoken) (tr : list (ctx * list stmt * pstate)).
  Hypothesis Htr : forall m R, chain (S (length ptoks + m)) R (start ptoks :: tr).

  Definition tail_tokens (tail : bytes) : option (list ptoken) :=
    let t := replace_crlf tail in lexed_tokens (lex_steps (left + length t) t toks).

  Lemma tail_tokens_ok tail : parser_input (tokenize (pre ++ tail)) = tail_tokens tail.
  Proof.
    destruct Hpre as (Hcr & Hk & Hlex).
    unfold tail_tokens, tokenize. rewrite (LexLayout.replace_crlf_app _ _ Hcr), lex_loop_steps, app_length.
    cbn [map]. change (S (length pre + ?n)) with (S (length pre) + n)%nat. rewrite Hk, <- Nat.add_assoc, lex_steps_add, Hlex. reflexivity.
  Qed.

  (* the tokens behind those of pre go to the loop in the state pre leaves; anything unexpected takes the long way *)
  Definition verdict_tail (tail : bytes) : verdict :=
    match tail_tokens tail with
    | None => Rejected
    | Some ts =>
        let f := S (length ts) in
        match ts, strip_pre ptoks ts with
        | t0 :: _, Some R =>
            if tok_is t0 IMPORT || (f <? length tr)%nat then verdict_of (pre ++ tail)
            else let '(c, acc, st) := final tr (start ptoks) in block_verdict (block_loop f c acc (f - length tr)%nat (at_state R st))
        | _, _ => verdict_of (pre ++ tail)
        end
    end.

  Lemma verdict_tail_ok tail : verdict_of (pre ++ tail) = verdict_tail tail.
  Proof.
    unfold verdict_tail. pose proof (tail_tokens_ok tail) as Hp.
    destruct (tail_tokens tail) as [[|t0 ts]|]; [reflexivity| |exact (verdict_no_tokens _ Hp)].
    destruct (strip_pre ptoks (t0 :: ts)) as [R|] eqn:Es; [|reflexivity].
    destruct (tok_is t0 IMPORT) eqn:Et; [reflexivity|]. cbn [orb].
    destruct (S (length (t0 :: ts)) <? length tr)%nat eqn:El; [reflexivity|]. apply Nat.ltb_ge in El.
    rewrite (verdict_tokens _ t0 ts Hp Et). unfold tok_fuel. rewrite block_loop_spec.
    set (f := S (length (t0 :: ts))) in *.
    assert (f = S (length ptoks + length R)) as Ef by (unfold f; rewrite (strip_pre_app _ _ _ Es), app_length; reflexivity).
    pose proof (chain_loop f R tr _ _ _ (f - length tr) (eq_ind_r (fun x => chain x R _) (Htr (length R) R) Ef)) as Hc.
    rewrite Nat.add_comm, (Nat.sub_add _ _ El) in Hc.
    rewrite (strip_pre_app _ _ _ Es). change (mkPS (ptoks ++ R) [] []) with (at_state R (mkPS ptoks [] [])). rewrite Hc.
    unfold start. destruct (final tr _) as [[c acc] st]. reflexivity.
  Qed.

  Hypothesis Hall : forallb (entry_ok verdict_tail) table = true.
  Hypothesis Hsome : existsb (entry_finding verdict_tail) table = true.

  Theorem table_entries : forall tail acc, In (tail, acc, []) table ->
    verdict_of (pre ++ tail) = if acc then Accepted else Rejected.
  Proof.
    intros tail acc Hin. rewrite forallb_forall in Hall. specialize (Hall _ Hin). cbn [entry_ok] in Hall.
    rewrite verdict_tail_ok. destruct (verdict_tail tail), acc; try discriminate; reflexivity.
  Qed.

  Theorem table_findings : exists e, In e table /\ entry_finding_gen pre e = true.
  Proof.
    apply existsb_exists in Hsome as (e & Hin & He). exists e. split; [exact Hin|].
    destruct e as [[tail acc] fnd]. cbn [entry_finding_gen]. rewrite verdict_tail_ok. exact He.
  Qed.
End Generic.

Definition c06_lexed := Eval vm_compute in lex_steps (S (length c06_prelude)) c06_prelude [].
Definition c06_left := match c06_lexed with Some (l, _, _) => l | None => O end.
Definition c06_toks := match c06_lexed with Some (_, _, a) => a | None => [] end.
Definition c06_steps := (S (length c06_prelude) - c06_left)%nat.

Lemma c06_prelude_lexed : lexed c06_prelude c06_steps c06_left c06_toks.
Proof. split; [reflexivity|split; [reflexivity|]]. intro t. vm_compute. reflexivity. Qed.

Definition c06_ptoks : list ptoken := Eval vm_compute in rev c06_toks.
Definition c06_trace : list (ctx * list stmt * pstate) :=
  Eval vm_compute in
    let f := (2 * length c06_ptoks)%nat in        (* any fuel the prelude's statements do not exhaust *)
    let '(c, acc, st) := start c06_ptoks in trace_from f f c acc st.

Lemma c06_prelude_parsed m R : chain (S (length c06_ptoks + m)) R (start c06_ptoks :: c06_trace).
Proof. unfold c06_trace, start. cbn [chain]. repeat split; intros X n; vm_compute; reflexivity. Qed.

Lemma c06_entries_ok : forallb (entry_ok (verdict_tail c06_prelude c06_left c06_toks c06_ptoks c06_trace)) c06_table = true.
Proof. vm_compute. reflexivity. Qed.

Lemma c06_finding_witness : existsb (entry_finding (verdict_tail c06_prelude c06_left c06_toks c06_ptoks c06_trace)) c06_table = true.
Proof. vm_compute. reflexivity. Qed.
