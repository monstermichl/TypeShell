(* C01  Bash target preserves scalar expression and control-flow semantics.  PARTIAL.
   Proved: (1) expressions - for every call-free scalar expression the emitted lines compute the source value in the shell
   (any nesting depth, any operator mix, all int64 values, strings as data, len of strings); (2) integer literals keep their value through
   printing and re-reading; (3) the reference arithmetic is Go's int64 arithmetic; (4) straight-line programs
   (C01_straight_line_preserved); (5) conditionals at any nesting depth (C01_conditionals_preserved); (6) terminating
   programs with loops, break, continue, simultaneous assignments and call statements (C01_loops_preserved); (7) the source
   semantics of these theorems is executable (C01_source_semantics_executable); (8) whole programs end to end
   (C01_program_preserved): interpreter answer + decidable name check => the emitted script prints it; (9) the statement
   structure of the script (C16/C04 theorems).  NOT covered by a theorem: slices, subscripts of strings,
   calls as operands or arguments, panic, non-terminating runs; these are decided on generated programs by running the
   implementation's script under /bin/bash against Sem/Src.v. *)
From Verif Require Import Base.Bytestr Base.DecFacts Front.Ast Front.FrontModel Back.Transpile Back.BashConv
  Back.BashFacts Sem.Src Sem.SrcFacts Sem.BashSem Sem.ExprPreserve Sem.StmtPreserve Sem.FlatSem Sem.IfPreserve Sem.FlatLoop Sem.LoopPreserve.
From Coq Require Import ZArith.
From Verif Require Import Sem.JRun Sem.ProgramPreserve Facts.SimSamples.
Open Scope N_scope.

(* For every call-free scalar expression e (literals, variables, groups, !, + - * / %, string +, == != < <= > >=,
   && ||, itoa), every source environment sg (well-typed, int64 values), every shell environment b that
   represents sg on the variables of e, with no user variable spelled like a converter helper:
   if e has the value v (peval) then the lines the converter appends run without error and leave the value's
   text in the returned atom; no variable other than fresh helpers changes. *)
Theorem C01_expression_preserved : forall e sg used s vs s' b v,
  pure e = true ->
  t_expr bash_conv e used s = TOk vs s' -> peval sg e = Some v -> env_ok sg -> lits_ok e ->
  represents sg b s (vars_of e) -> hygienic s (vars_of e) ->
  exists ls a b',
    vs = [a] /\ b_code s' = b_code s ++ ls /\ exec_lines b ls = Some b' /\ atom_text b' a = text v /\
    (forall n, (forall k, (b_var_counter s <= k < b_var_counter s')%nat -> n <> helper_name s k) -> sh_get n b' = sh_get n b).
Proof.
  intros e sg used s vs s' b v Hp Ht Hv He Hl Hr Hh.
  destruct (expr_preserve e Hp sg used s vs s' b v Ht Hv He Hl Hr Hh) as [ls a b' O E M R V F S].
  exists ls, a, b'. exact (conj O (conj (x_code _ _ _ E) (conj R (conj V F)))).
Qed.
Print Assumptions C01_expression_preserved.

(* Straight-line programs (assignments and definitions of one variable from call-free scalar expressions, print of such
   expressions, in any number and order): run by the shell model -- assignments as in Sem/BashSem.v, the printed line
   through the model of double-quoted text of Sem/Words.v -- the emitted lines print exactly what the source prints
   and leave the shell environment representing the final source environment.  String VALUES may hold any bytes;
   string LITERALS must be neutral (C08), variable names must be identifiers no other variable or helper shares. *)
Theorem C01_straight_line_preserved : forall XS sg body sg' out,
  sl XS sg body sg' out -> forall s u s' b,
  go_fix body s = TOk u s' -> env_ok sg ->
  (forall x, In x XS -> var_fine s x) -> represents sg b s XS -> hygienic s XS -> names_inj s XS ->
  exists ls b', b_code s' = b_code s ++ ls /\ exec_outs b ls = Some (b', out) /\ represents sg' b' s' XS.
Proof. exact straight_line_preserved. Qed.
Print Assumptions C01_straight_line_preserved.

(* Conditionals.  Programs of assignments, prints and if / else-if / else whose branches are again such programs, at any
   nesting depth (slx is their source semantics: all conditions of a chain are evaluated first, then the first true branch
   or the else part runs): the emitted lines, run by the flat shell model of Sem/FlatSem.v (condition lines [ c -eq 1 ],
   a false condition moves to the next elif / else / fi of the construct, the end of a taken branch moves behind the
   matching fi), print what the source prints and leave the environment representing the final source environment. *)
Theorem C01_conditionals_preserved : forall XS sg body sg' out s u s' b,
  slx XS sg body sg' out -> go_fix body s = TOk u s' -> env_ok sg -> ctx_ok XS sg b s ->
  exists X b', b_code s' = b_code s ++ X /\ runs b X (b', out) /\ represents sg' b' s' XS.
Proof. exact conditionals_preserved. Qed.
Print Assumptions C01_conditionals_preserved.

(* Loops.  Programs of assignments, prints, conditionals, three-clause and condition-only for loops, break and continue, at
   any nesting depth (J is their source semantics with termination built in: a derivation exists exactly for terminating
   runs; the increment clause runs at the start of every round but the first): the emitted lines, run by the flat shell
   model with loops of Sem/FlatLoop.v (a loop is entered by pushing the list behind do; done and continue go back to it,
   break and a failing exit test go behind the matching done; the first-iteration flag guards the increment), print what
   the source prints and leave the environment representing the final source environment.  fresh_flags: no variable of
   the program is spelled like a loop flag _fv<n>, a return register _rv<n> or a mangled local f<n>_x of a function that may
   run (C10); loops opened before this code have numbers below klo.  Simultaneous assignments x, y = e1, e2 and the calls x = f(..), x, y = f(..), x := f(..) and f(..) with call-free
   arguments are statements of these programs too: scall is what a call does in the source, call what the script's
   function does (with pos its positional parameters), and call_refines says the latter refines the former - results in
   the return registers, the caller's variables still represented, protected flags and the names of later functions
   unwritten.  more fuel never changes what a call does (fuel_mono).  Sem/CallPreserve.v discharges call_refines for the functions of a
   script (C02_calls_refined). *)
Theorem C01_loops_preserved : forall call pos, fuel_mono call -> forall klo mlo scall, call_refines call klo mlo scall ->
  forall XS sg body sg' out s u s' b,
  J scall XS (Prog body) sg sg' out SN -> go_fix body s = TOk u s' -> frag2_all body = true -> env_ok sg -> ctx_ok XS sg b s ->
  fresh_flags klo mlo XS s ->
  exists X b', b_code s' = b_code s ++ X /\ lruns call pos b [] X (b', out) /\ represents sg' b' s' XS.
Proof. exact loops_preserved. Qed.
Print Assumptions C01_loops_preserved.

(* Integer literals: what the converters print is read back as the same int64. *)
Theorem C01_literal_roundtrip : forall z, (-9223372036854775808 <= z <= 9223372036854775807)%Z -> atoi (dec_Z z) = Some z.
Proof. exact atoi_dec_Z. Qed.
Print Assumptions C01_literal_roundtrip.

(* The reference arithmetic stays within int64 and truncates like Go. *)
Theorem C01_reference_arithmetic : forall op a b z,
  arith op a b = Some z -> (int64_min <= a <= int64_max)%Z -> (int64_min <= b <= int64_max)%Z -> (int64_min <= z <= int64_max)%Z.
Proof. exact arith_in_range. Qed.
Print Assumptions C01_reference_arithmetic.

(* Helper variables of one expression are pairwise distinct. *)
Theorem C01_helpers_distinct : forall s k1 k2, helper_name s k1 = helper_name s k2 -> k1 = k2.
Proof. exact helper_name_inj. Qed.
Print Assumptions C01_helpers_distinct.

(* Non-vacuity: (x + 2) * 3 < 20 && !false with x = 4 *)
Definition vx : var := mkVar (bs "x") (T DInt) true false.
Definition e0 : expr :=
  ELogical (ECompare (EBinary (EGroup (EBinary (EVar vx) OpAdd (EInt 2))) OpMul (EInt 3)) CLt (EInt 20)) LAnd (EUnary (EBool false)).
Definition sg0 : senv := fun y => if beq (v_name y) (bs "x") then Some (VInt 4) else None.
Example C01_sample :
  pure e0 = true /\ peval sg0 e0 = Some (VBool true) /\
  match t_expr bash_conv e0 true b_init with
  | TOk [a] s' => match exec_lines [(bs "x", bs "4")] (b_code s') with Some b' => atom_text b' a = bs "1" | None => False end
  | _ => False
  end.
Proof. vm_compute. repeat split; reflexivity. Qed.

(* Non-vacuity of the straight-line theorem: y := x + 1; print(t, y) with a string value full of shell syntax *)
Definition vy : var := mkVar (bs "y") (T DInt) true false.
Definition vt : var := mkVar (bs "t") (T DString) true false.
Definition prog1 : list stmt := [SAssign [vy] [EBinary (EVar vx) OpAdd (EInt 1)]; SPrint [EVar vt; EVar vy]].
Example C01_straight_sample :
  match go_fix prog1 b_init with
  | TOk _ s' => exec_outs [(bs "x", bs "4"); (bs "t", bs "a""b $(touch X) `c` \ *")] (b_code s')
                = Some ([(bs "y", bs "5"); (bs "_h0", bs "5"); (bs "x", bs "4"); (bs "t", bs "a""b $(touch X) `c` \ *")],
                        bs "a""b $(touch X) `c` \ * 5" ++ [10])
  | _ => False
  end.
Proof. vm_compute. reflexivity. Qed.

(* Non-vacuity of the conditional theorem: if x > 5 { print("big") } else if x > 3 { y = x * 2; print(t, y) } else { print("small") }; print("end") *)
Definition cgt (n : Z) : expr := ECompare (EVar vx) CGt (EInt n).
Definition prog2 : list stmt :=
  [SIf [(cgt 5, [SPrint [EStr (bs "big")]]); (cgt 3, [SAssign [vy] [EBinary (EVar vx) OpMul (EInt 2)]; SPrint [EVar vt; EVar vy]])] [SPrint [EStr (bs "small")]];
   SPrint [EStr (bs "end")]].
Example C01_conditional_sample :
  match go_fix prog2 b_init with
  | TOk _ s' => option_map snd (run 200 false [(bs "x", bs "4"); (bs "t", bs "a""b $(touch X)")] (b_code s')) = Some (bs "a""b $(touch X) 8" ++ [10] ++ bs "end" ++ [10])
                /\ option_map snd (run 200 false [(bs "x", bs "9"); (bs "t", bs "-")] (b_code s')) = Some (bs "big" ++ [10] ++ bs "end" ++ [10])
                /\ option_map snd (run 200 false [(bs "x", bs "1"); (bs "t", bs "-")] (b_code s')) = Some (bs "small" ++ [10] ++ bs "end" ++ [10])
  | _ => False
  end.
Proof. vm_compute. repeat split; reflexivity. Qed.

(* Non-vacuity of the loop theorem: s = 0; for i = 0; i < 10; i++ { if i == 2 { continue }; if i > 4 { break }; s = s + i; print(i, s) }; print("end", s) *)
Definition vi : var := mkVar (bs "i") (T DInt) true false.
Definition vs0 : var := mkVar (bs "s") (T DInt) true false.
Definition prog3 : list stmt :=
  [SVarDef [vs0] [EInt 0];
   SFor (Some (SVarDef [vi] [EInt 0])) (ECompare (EVar vi) CLt (EInt 10)) (Some (SAssign [vi] [EBinary (EVar vi) OpAdd (EInt 1)]))
     [SIf [(ECompare (EVar vi) CEq (EInt 2), [SContinue])] [];
      SIf [(ECompare (EVar vi) CGt (EInt 4), [SBreak])] [];
      SAssign [vs0] [EBinary (EVar vs0) OpAdd (EVar vi)];
      SPrint [EVar vi; EVar vs0]];
   SPrint [EStr (bs "end"); EVar vs0]].
Example C01_loop_sample :
  frag2_all prog3 = true /\
  match go_fix prog3 b_init with
  | TOk _ s' => option_map snd (lrun (fun _ _ _ _ => None) [] 2000 false [] [] (b_code s'))
                = Some (bs "0 0" ++ [10] ++ bs "1 1" ++ [10] ++ bs "3 4" ++ [10] ++ bs "4 8" ++ [10] ++ bs "end 8" ++ [10])
  | _ => False
  end.
Proof. vm_compute. split; reflexivity. Qed.

(* The hypotheses of the loop theorem are satisfiable and its conclusion is the expected run: a complete source derivation
   (J), context and name conditions for the program above, and the theorem applied to them (Facts/SimSamples.v). *)
Example C01_loop_hypotheses_hold :
  (exists sgF out, J SimSamples.no_calls SimSamples.XS3 (Prog SimSamples.prog3) SimSamples.sg_empty sgF out SN /\
                   out = bs "0 0" ++ [10] ++ bs "1 1" ++ [10] ++ bs "3 4" ++ [10] ++ bs "4 8" ++ [10] ++ bs "end 8" ++ [10]) /\
  ctx_ok SimSamples.XS3 SimSamples.sg_empty [] b_init /\ fresh_flags 0 0 SimSamples.XS3 b_init.
Proof. exact (conj SimSamples.loop_sample_derivation (conj SimSamples.ctx3 SimSamples.fresh3)). Qed.

(* The source semantics J of the theorems above is executable: whatever the interpreter jrun computes (its side conditions
   decided by boolean checks) has a J derivation - so J's hypotheses are satisfiable exactly where the interpreter answers.
   The interpreter is extracted and, on every generated program of the fragment, its output must equal the reference
   semantics Sem/Src.v, which in turn must equal the /bin/bash run of the implementation's script. *)
Theorem C01_source_semantics_executable : forall scall XS jc,
  (forall f vals sg rvals sg1 o, jc f vals sg = Some (rvals, sg1, o) -> env_ok sg -> scall XS f vals sg rvals sg1 o /\ env_ok sg1) ->
  forall fuel c sg sg' out g, jrun fuel XS jc c sg = Some (sg', out, g) -> env_ok sg -> J scall XS c sg sg' out g.
Proof. exact (fun scall XS jc Hjc fuel c sg sg' out g H He => jrun_sound scall XS jc Hjc fuel c sg (sg', out, g) H He). Qed.
Print Assumptions C01_source_semantics_executable.

(* WHOLE PROGRAMS.  Function definitions and top-level statements in any order; statements and function bodies from the
   fragment of the theorems above (assignments, simultaneous assignments, prints, conditionals, loops, break, continue,
   call statements with one or several results, return anywhere).  Every hypothesis is a computation: jprogram is the
   interpreter of the source semantics (sound for J, C01_source_semantics_executable / C02_calls_executable),
   program_static decides that no variable of the program is spelled like a name of the converter (C10) and that the
   items are in the fragment, emit_bash is the model of the transpiler with the Bash converter (its script bytes are
   compared with the implementation's on every run).  Conclusion: the emitted lines, run by the flat shell machine with the
   script's own functions as the call oracle, terminate and print what the source prints. *)
Theorem C01_program_preserved : forall fuel body out script st,
  jprogram fuel body = Some out -> program_static body = true -> emit_bash body = TOk script st ->
  exists b', lruns (call_of (b_code st) 40) [] [] [] (b_code st) (b', out).
Proof. exact program_preserved. Qed.
Print Assumptions C01_program_preserved.

(* the hypotheses hold, by computation, for the sample programs: loop with break and continue; function called twice;
   swap and two results; early return and a function without results; return inside a loop; len of strings *)
Example C01_program_samples :
  (jprogram 2000 SimSamples.prog3 <> None /\ program_static SimSamples.prog3 = true) /\
  (jprogram 2000 (SimSamples.add_def :: SimSamples.main_add) = Some (bs "in 42" ++ [10] ++ bs "42 1" ++ [10] ++ bs "in 84" ++ [10]) /\
   program_static (SimSamples.add_def :: SimSamples.main_add) = true) /\
  (jprogram 2000 (SimSamples.dm_def :: SimSamples.main_dm) = Some (bs "5 17 0 5" ++ [10]) /\ program_static (SimSamples.dm_def :: SimSamples.main_dm) = true) /\
  (jprogram 2000 (SimSamples.abs_def :: SimSamples.show_def :: SimSamples.main_abs) = Some (bs "v 8" ++ [10]) /\
   program_static (SimSamples.abs_def :: SimSamples.show_def :: SimSamples.main_abs) = true) /\
  (jprogram 2000 (SimSamples.find_def :: SimSamples.main_find) = Some (bs "4" ++ [10]) /\ program_static (SimSamples.find_def :: SimSamples.main_find) = true) /\
  (jprogram 2000 SimSamples.prog_len = Some (bs "6 12" ++ [10]) /\ program_static SimSamples.prog_len = true).
Proof. vm_compute. repeat split; try reflexivity. intro H; discriminate H. Qed.
