(* C18  Command calls get exactly the given arguments.
   Proved: for every argument list whose members are computed values (variable references: ANY content) or
   literals that are either neutral text containing a blank or made of ordinary word characters, the called
   program receives as many words as arguments, each byte for byte (C18_argv_exact).  Outside that class the
   heuristic of AppCall (quote only what starts with a dollar or contains a blank) fails: an empty literal
   vanishes, metacharacters and glob characters are interpreted (C18_refuted; known findings by class).
   Pipes, capture and exit status are not modelled; they are decided against the probe programs on every run. *)
From Verif Require Import Base.Bytestr Back.BashLines Back.BashConv Sem.BashSem Sem.AppArgs.
Open Scope N_scope.

Theorem C18_argv_exact : forall e args,
  forallb arg_fine args = true -> argv_words e (map app_arg args) = Some (map (atom_text e) args).
Proof. exact argv_exact. Qed.
Print Assumptions C18_argv_exact.

Theorem C18_refuted : forall e,
  arg_words e (app_arg (ALit [])) = Some []
  /\ arg_words e (app_arg (ALit (bs "a;b"))) = None /\ arg_words e (app_arg (ALit (bs "*"))) = None.
Proof. intro e. split; [exact (empty_argument_vanishes e)|exact (metacharacter_not_an_argument e)]. Qed.
Print Assumptions C18_refuted.

Example C18_sample :
  forallb arg_fine [ALit (bs "--exit=7"); ARef (bs "sv"); ALit (bs "two words"); ALit (bs "x1")] = true.
Proof. reflexivity. Qed.
