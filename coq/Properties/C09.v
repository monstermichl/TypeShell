(* C09  Multi-file programs link correctly; unused-function removal is safe. *)
From Verif Require Import Base.Bytestr Front.Ast Front.FrontModel Front.FrontFacts.
Open Scope N_scope.

(* getUsedFuncs(""): the kept set contains every function reachable in the recorded call graph from
   top-level code. *)
Theorem C09_used_contains_reachable : forall u keep, used_funcs u = Some keep -> forall f, reachable u f -> In f keep.
Proof. exact used_funcs_complete. Qed.
Print Assumptions C09_used_contains_reachable.

(* cleanProgram never removes the definition of a reachable function ... *)
Theorem C09_clean_keeps_reachable : forall u body body' name rets params fb pub,
  clean_program u body = Some body' ->
  In (SFunc name rets params fb pub) body -> reachable u name -> In (SFunc name rets params fb pub) body'.
Proof. exact clean_keeps_reachable. Qed.
Print Assumptions C09_clean_keeps_reachable.

(* ... nor any other statement. *)
Theorem C09_clean_keeps_statements : forall u body body' s,
  clean_program u body = Some body' -> In s body ->
  (match s with SFunc _ _ _ _ _ => False | _ => True end) -> In s body'.
Proof. exact clean_keeps_statements. Qed.
Print Assumptions C09_clean_keeps_statements.

(* merging the call graph of an imported file loses no edge (the defect fixed in /repo: the merge
   iterated the wrong list) *)
Theorem C09_merge_keeps_edges : forall mine theirs k l x,
  aget k theirs = Some l -> In x l -> NoDup (map fst theirs) ->
  exists l', aget k (merge_used mine theirs) = Some l' /\ In x l'.
Proof. intros mine theirs k l x Hg Hx _. apply merge_used_keeps. right. exists l. exact (conj Hg Hx). Qed.
Print Assumptions C09_merge_keeps_edges.
