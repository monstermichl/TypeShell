(* C04  Operands are evaluated exactly once, in source order, conditions eagerly.
   Syntactic half, for ALL programs: the function-call lines of the emitted Bash script are exactly the
   calls of the program, each once, in the order the property prescribes:
     - operands, arguments, indices, slice elements, printed and returned values left to right,
       the arguments of a call before the call;
     - both operands of && and || unconditionally;
     - all conditions of an if / else-if chain before the first branch body;
     - for a loop: initialisation, then (inside the loop) increment, condition, body.
   The semantic half (the trace of side effects) is decided by executing generated programs with
   effectful functions at every operand position against the reference semantics. *)
From Verif Require Import Base.Bytestr Front.Ast Back.Transpile Back.BashConv Back.BashFacts.
Open Scope N_scope.

Theorem C04_calls_in_order_expression : forall e used s vs s',
  t_expr bash_conv e used s = TOk vs s' ->
  exists ls, b_code s' = b_code s ++ ls /\ call_lines ls = calls_expr e.
Proof.
  intros e used s vs s' H. destruct (t_expr_ok e used s vs s' H) as (ls & E & _ & C).
  exists ls. split; [apply (x_code _ _ _ E)|exact C].
Qed.
Print Assumptions C04_calls_in_order_expression.

Theorem C04_calls_in_order_statement : forall st s s',
  t_stmt bash_conv st s = TOk tt s' -> emits st = true ->
  exists ls, b_code s' = b_code s ++ ls /\ call_lines ls = calls_stmt st.
Proof. intros st s s' H _. exact (stmt_calls st s s' H). Qed.
Print Assumptions C04_calls_in_order_statement.

Theorem C04_calls_in_order_program : forall body script st,
  emit_bash body = TOk script st -> emits_all body = true -> call_lines (b_code st) = calls_block body.
Proof. intros body script st H _. apply (emit_bash_code body script st H). Qed.
Print Assumptions C04_calls_in_order_program.

(* what the order is, on an example: if f() && g() { h(k()) } else if m() { } -- f g m before the branch, k before h *)
Definition call0 (n : bytes) : expr := ECall n [T DBool] [].
Example C04_order_example :
  calls_stmt (SIf [ (ELogical (call0 (bs "f")) LAnd (call0 (bs "g")), [SExpr (ECall (bs "h") [] [call0 (bs "k")])]); (call0 (bs "m"), []) ] [])
  = [bs "f"; bs "g"; bs "m"; bs "k"; bs "h"].
Proof. reflexivity. Qed.
