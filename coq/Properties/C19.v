(* C19  The tsh command writes exactly the library's output, or nothing.
   [tsh lib fs args] is the model of tsh.go (Cli/Tsh.v); [lib] is an arbitrary library. *)
From Verif Require Import Base.Bytestr Cli.Tsh Cli.TshProofs.
Open Scope N_scope.

(* Success: exit 0; every requested target's file holds exactly what the library returns for that
   target; every other path (the input included, when it is no output path) is as before. *)
Theorem C19_writes_exactly : forall lib fs args o,
  parse_options fs args = Some o ->
  (forall t, In t (o_targets o) -> lib (o_in o) t <> None) ->
  snd (tsh lib fs args) = Exit0 /\
  forall p, fs_find p (fst (tsh lib fs args)) =
            match find (fun t => beq p (out_path o t)) (o_targets o) with
            | Some t => match lib (o_in o) t with Some s => Some (File s) | None => None end
            | None => fs_find p fs
            end.
Proof. intros lib fs args o Hp Hall. unfold tsh. rewrite Hp. apply emit_all_ok, Hall. Qed.
Print Assumptions C19_writes_exactly.

(* Bad options (unknown switch, missing value, missing or wrong input/output, unknown target, nothing requested):
   non-zero exit and an unchanged file system. *)
Theorem C19_bad_options : forall lib fs args,
  parse_options fs args = None -> tsh lib fs args = (fs, ExitPanic).
Proof. intros lib fs args H. unfold tsh. rewrite H. reflexivity. Qed.
Print Assumptions C19_bad_options.

(* A target for which the library reports an error: non-zero exit, and that target's output file is
   neither created nor changed. *)
Theorem C19_failing_target_clean : forall lib fs args o t,
  parse_options fs args = Some o -> In t (o_targets o) -> lib (o_in o) t = None ->
  snd (tsh lib fs args) = ExitPanic /\
  fs_find (out_path o t) (fst (tsh lib fs args)) = fs_find (out_path o t) fs.
Proof.
  intros lib fs args o t Hp Hin Hf. unfold tsh. rewrite Hp. split.
  - exact (emit_all_exit lib o _ fs t Hin Hf).
  - apply emit_all_untouched. intros t' _ Hs E. apply out_path_inj in E. congruence.
Qed.
Print Assumptions C19_failing_target_clean.

(* Whatever happens, a path that is no output path of a requested target is untouched
   (in particular the input file, unless it is itself named like an output). *)
Theorem C19_nothing_else_touched : forall lib fs args p,
  (forall o t, parse_options fs args = Some o -> In t (o_targets o) -> p <> out_path o t) ->
  fs_find p (fst (tsh lib fs args)) = fs_find p fs.
Proof.
  intros lib fs args p H. unfold tsh. destruct (parse_options fs args) as [o|] eqn:E; [|reflexivity].
  apply emit_all_untouched. intros t Ht _. exact (H o t eq_refl Ht).
Qed.
Print Assumptions C19_nothing_else_touched.

(* The order in which targets are requested and naming a target twice do not matter. *)
Theorem C19_target_order_and_repetition : forall lib fs o ts1 ts2,
  (forall t, In t ts1 <-> In t ts2) ->
  (forall t, In t ts1 -> lib (o_in o) t <> None) ->
  forall p, fs_find p (fst (emit_all lib o ts1 fs)) = fs_find p (fst (emit_all lib o ts2 fs)).
Proof.
  intros lib fs o ts1 ts2 Heq Hall p.
  assert (forall t, In t ts2 -> lib (o_in o) t <> None) as Hall2 by (intros t Ht; apply Hall, Heq, Ht).
  rewrite (proj2 (emit_all_ok lib o ts1 fs Hall)), (proj2 (emit_all_ok lib o ts2 fs Hall2)).
  rewrite (find_set_equiv o p ts1 ts2 Heq). reflexivity.
Qed.
Print Assumptions C19_target_order_and_repetition.

(* Non-vacuity: a concrete run.  "-t bash -i a.b.tsh -o out -t batch -t bash" writes out/a.b.sh and out/a.b.bat. *)
Definition lib0 (p : bytes) (t : target) : option bytes :=
  Some (match t with Bash => bs "#!/bin/bash" | Batch => bs "@echo off" end).
Definition fs0 : fsys := [ (bs "a.b.tsh", File (bs "print(1)")); (bs "out", Dir) ].
Definition args0 := [ bs "-t"; bs "bash"; bs "-i"; bs "a.b.tsh"; bs "-o"; bs "out"; bs "-t"; bs "batch"; bs "-t"; bs "bash" ].

Example C19_sample :
  tsh lib0 fs0 args0 =
  ([ (bs "a.b.tsh", File (bs "print(1)")); (bs "out", Dir);
     (bs "out/a.b.sh", File (bs "#!/bin/bash")); (bs "out/a.b.bat", File (bs "@echo off")) ], Exit0)
  /\ tsh lib0 fs0 [bs "-i"; bs "a.b.tsh"; bs "-o"; bs "out"; bs "-t"] = (fs0, ExitPanic)
  /\ tsh (fun _ _ => None) fs0 args0 = (fs0, ExitPanic).
Proof. vm_compute. repeat split; reflexivity. Qed.
