(* C08  String values are opaque data on every path: never expanded or executed.
   What is proved (for every content of the variables, every environment, every length):
   - a value held in a variable arrives unchanged wherever a reference to it stands inside a double-quoted
     word -- this is how print, assignment, concatenation, comparison operands, call arguments, return
     values, slice stores, subscripts and file writes receive run-time values (C08_value_in_word);
   - text embedded in an eval string (slice literal, slice store helper, write) is handed to eval with its
     references intact, and eval expands them once: a value is never scanned again, hence never
     executed (C08_eval_once);
   - a string literal is emitted as it stands (C08_literal_spliced), so it is opaque exactly when it avoids
     dollar, backquote, double quote and backslash (C08_neutral_literal); for the other literals the property
     FAILS (C08_literal_refuted): this is how the pinned tree works (its own std/os.tsh relies on it), it is
     recorded as a known finding.
   The statement over whole programs (every path of every program) is not proved; the
   check runs the full (character x position x path x origin) sweep through the implementation and /bin/bash. *)
From Verif Require Import Base.Bytestr Front.Ast Back.BashLines Back.Transpile Back.BashConv Sem.BashSem Sem.Words.
Open Scope N_scope.

Theorem C08_value_in_word : forall e l,
  forallb atom_ok l = true -> dq e (concat (map render_atom l)) = Some (concat (map (atom_text e) l)).
Proof. exact dq_word. Qed.
Print Assumptions C08_value_in_word.

Theorem C08_eval_once : forall e a r,
  atom_ok a = true ->
  dq_go e (bq ++ defer_exp (render_atom a) ++ bq ++ r) DPlain = option_map (app (q ++ render_atom a ++ q)) (dq_go e r DPlain)
  /\ dq e (render_atom a) = Some (atom_text e a).
Proof. intros e a r H. split; [exact (dq_eval_quoted e a r H)|exact (eval_scans_once e a H)]. Qed.
Print Assumptions C08_eval_once.

Theorem C08_literal_spliced : forall t used s, t_expr bash_conv (EStr t) used s = TOk [ALit t] s.
Proof. reflexivity. Qed.
Print Assumptions C08_literal_spliced.

Theorem C08_neutral_literal : forall e t, neutral t = true -> dq e t = Some t.
Proof. intros e t H. unfold dq. rewrite <- (app_nil_r t), (dq_neutral e t [] H). cbn. rewrite app_nil_r. reflexivity. Qed.
Print Assumptions C08_neutral_literal.

Theorem C08_literal_refuted :
  exists t, dq [] t <> Some t /\ (exists t2, dq [(bs "HOME", bs "/root")] t2 = Some (bs "/root") /\ t2 = bs "${HOME}").
Proof. exists (bs "a\\b"). split; [vm_compute; discriminate|]. exists (bs "${HOME}"). split; reflexivity. Qed.
Print Assumptions C08_literal_refuted.

(* non-vacuity *)
Example C08_sample :
  forallb atom_ok [ALit (bs "<"); ARef (bs "f1_v"); ALit (bs "> * -n")] = true
  /\ dq [(bs "f1_v", bs "q""d$HOME`x`\n*  -e $(touch X)")] (concat (map render_atom [ALit (bs "<"); ARef (bs "f1_v"); ALit (bs "> * -n")]))
     = Some (bs "<q""d$HOME`x`\n*  -e $(touch X)> * -n").
Proof. vm_compute. split; reflexivity. Qed.
