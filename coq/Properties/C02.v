(* C02  Bash target preserves function-call semantics and variable isolation.  PARTIAL.
   Proved for all programs: the name mangling that keeps frames apart is injective - two different functions
   never share a shell variable for their parameters and locals, a function gets a number no earlier function
   had; globals keep their own name wherever they are used; the call lines of the script are the calls of the
   program in evaluation order (C04 theorems).
   Proved for functions whose body is a program of Sem/LoopPreserve.v (assignments, prints, conditionals, loops, calls of
   earlier functions, simultaneous assignments, return anywhere - at the end, inside if / else-if / else branches, inside
   loops - or no return for a function without results), and for the call statements
   x = f(..), x := f(..), x, y = f(..), x, y := f(..), f(..) with call-free arguments: the simulation itself
   (C02_function_refines, C02_calls_refined, C02_calls_preserved) - arguments are bound to the parameters in order, the
   body sees the globals in place and its own frame, the caller's locals are unchanged whatever the names, all returned
   values reach the return registers and the variables of the call site in order, at any nesting depth of calls; a
   simultaneous assignment x, y = e1, e2 evaluates every right-hand side in the old environment (J rule j_assign_multi:
   the values are parked in _ma<i> before the first store).  NOT covered by a theorem: slices as arguments, calls as
   arguments or operands; these are decided on generated programs against Sem/Src.v, and the flat shell model
   with the script's functions as its call oracle is compared with /bin/bash on every such program it is defined on. *)
From Verif Require Import Base.Bytestr Front.Ast Back.BashLines Back.Transpile Back.BashConv Back.NameFacts Back.BashFacts
  Sem.BashSem Sem.ExprPreserve Sem.StmtPreserve Sem.IfPreserve Sem.FlatLoop Sem.LoopPreserve Sem.CallPreserve Sem.JRun.
From Coq Require Import ZArith.
From Verif Require Import Facts.SimSamples.
Open Scope N_scope.

Theorem C02_frames_disjoint : forall k1 k2 n1 n2, mangled k1 n1 = mangled k2 n2 -> k1 = k2 /\ n1 = n2.
Proof. exact mangled_inj. Qed.
Print Assumptions C02_frames_disjoint.

Theorem C02_locals_are_mangled : forall s name, (0 < b_funcs s)%nat -> var_name s name false = mangled (b_func_counter s) name.
Proof. exact var_name_local. Qed.
Print Assumptions C02_locals_are_mangled.

Theorem C02_globals_in_place : forall s name, var_name s name true = name.
Proof. exact var_name_global. Qed.
Print Assumptions C02_globals_in_place.

Theorem C02_fresh_function_number : forall name ps rets s,
  b_func_counter (cv_func_start bstate atom bash_conv name ps rets s) = S (b_func_counter s).
Proof. exact func_start_counter. Qed.
Print Assumptions C02_fresh_function_number.

Theorem C02_call_lines_of_statement : forall st s s',
  t_stmt bash_conv st s = TOk tt s' -> emits st = true ->
  exists ls, b_code s' = b_code s ++ ls /\ call_lines ls = calls_stmt st.
Proof. intros st s s' H _. exact (stmt_calls st s s' H). Qed.
Print Assumptions C02_call_lines_of_statement.

(* One call of a function.  The callee: its body translated from sf (after its header) to sr, variables XSf, function
   number b_func_counter sf, loop flags from klo_f on; it may call functions with numbers below mlo_f through the oracle
   call, which refines scall.  The caller: any code at state s with variables XS whose globals are the callee's globals,
   whose environment sg is represented by the shell environment b, which protects the flags from klo_c on and the mangled
   names from function number mlo_c on.  If the source runs the body from the frame  bind params vals (globals_of sg)  to
   sgl printing o and ends it with  return e1, .., en  of values rvals - at the end of the body, inside if / else-if /
   else branches or inside loops - or, for a function without results, by reaching its end (ret_of), then the definition's lines - the local
   lines of the parameters, the body, the closing brace - run with the argument texts as positional parameters from b
   terminate printing o in an environment bF that represents  leave sg sgl  for the caller (globals as the function left
   them, the caller's own locals as they were), differs from b on nothing the caller protects, and holds the text of the
   i-th returned value in the i-th return register. *)
Theorem C02_function_refines : forall call, fuel_mono call -> forall klo_f mlo_f scall, call_refines call klo_f mlo_f scall ->
  forall klo_c mlo_c XSf sf sr params body u XS s b sg vals sgl o g rvals,
  (0 < b_funcs sf)%nat -> (b_func_counter sf < mlo_c)%nat -> (mlo_f <= mlo_c)%nat -> (b_for_counter sr <= klo_c)%nat ->
  (forall x, In x XSf -> var_fine sf x) -> hygienic sf XSf -> names_inj sf XSf -> fresh_flags klo_f mlo_f XSf sf ->
  (forall p, In p params -> v_global p = false /\ In p XSf) ->
  (forall x, v_global x = true -> (In x XS <-> In x XSf)) ->
  go_fix body sf = TOk u sr -> frag2_all body = true ->
  length vals = length params -> env_ok (bind params vals (globals_of sg)) ->
  J scall XSf (Prog body) (bind params vals (globals_of sg)) sgl o g -> ret_of g rvals ->
  ctx_ok XS sg b s -> fresh_flags klo_c mlo_c XS s ->
  exists X bF, cext sf sr X /\
    (forall rest, lruns call (map text vals) b [] (param_lines (b_func_counter sf) (map v_name params) 1 ++ X ++ [LClose] ++ rest) (bF, o)) /\
    ctx_ok XS (leave sg sgl) bF s /\ untouched klo_c mlo_c XS s s b bF /\
    (forall i v, nth_error rvals i = Some v -> sh_get (rv_name i) bF = text v).
Proof. exact func_refines. Qed.
Print Assumptions C02_function_refines.

(* All functions of a script, at every nesting depth of calls: the script's own functions (call_of: look the definition
   up, run its lines with the arguments as positional parameters, calls inside it one level down) refine the source
   semantics of calls (scall_at: bind, run the body, evaluate the returned expressions, give the caller its locals back). *)
Theorem C02_calls_refined : forall defs script, (forall F, In F defs -> fun_ok script F) ->
  forall d klo mlo, call_refines (call_of script d) klo mlo (scall_at defs d klo mlo).
Proof. exact calls_refined. Qed.
Print Assumptions C02_calls_refined.

(* Code that calls functions: what it prints - the output of the called functions in its place - and the final values of
   its variables are those of the source. *)
Theorem C02_calls_preserved : forall defs script d klo mlo pos, (forall F, In F defs -> fun_ok script F) ->
  forall XS sg body sg' out s u s' b,
  J (scall_at defs d klo mlo) XS (Prog body) sg sg' out SN -> go_fix body s = TOk u s' -> frag2_all body = true ->
  env_ok sg -> ctx_ok XS sg b s -> fresh_flags klo mlo XS s ->
  exists X b', b_code s' = b_code s ++ X /\ lruns (call_of script d) pos b [] X (b', out) /\ represents sg' b' s' XS.
Proof. exact calls_preserved. Qed.
Print Assumptions C02_calls_preserved.

(* A sample run: func add(a int, b int) int { c := a + b; print("in", c); return c }
   g := 1; y := add(g, 41); print(y, g); add(y, y) - the emitted lines, run by the flat shell model with the script's
   own functions as the call oracle. *)
Definition pa : var := mkVar (bs "a") (T DInt) false false.
Definition pb : var := mkVar (bs "b") (T DInt) false false.
Definition lc : var := mkVar (bs "c") (T DInt) false false.
Definition gg : var := mkVar (bs "g") (T DInt) true false.
Definition gy : var := mkVar (bs "y") (T DInt) true false.
Definition prog_add : list stmt :=
  [SFunc (bs "add") [T DInt] [pa; pb]
     [SVarDef [lc] [EBinary (EVar pa) OpAdd (EVar pb)]; SPrint [EStr (bs "in"); EVar lc]; SReturn [EVar lc]] false;
   SVarDef [gg] [EInt 1%Z];
   SVarDefCall [gy] (ECall (bs "add") [T DInt] [EVar gg; EInt 41%Z]);
   SPrint [EVar gy; EVar gg];
   SExpr (ECall (bs "add") [T DInt] [EVar gy; EVar gy])].
Example C02_call_sample :
  match go_fix prog_add b_init with
  | TOk _ s' => option_map snd (lrun (call_of (b_code s') 3) [] 2000 false [] [] (b_code s'))
                = Some (bs "in 42" ++ [10] ++ bs "42 1" ++ [10] ++ bs "in 84" ++ [10])
  | _ => False
  end.
Proof. vm_compute. reflexivity. Qed.

(* The hypotheses of C02_calls_preserved are satisfiable and its conclusion is the expected run: for the program above,
   fun_ok of its function, a complete source derivation with two calls, the caller's context, and the theorem applied. *)
Example C02_call_hypotheses_hold :
  fun_ok SimSamples.script_add SimSamples.F_add /\
  (exists sgF out, J (scall_at [SimSamples.F_add] 1 0 2) SimSamples.XS_main (Prog SimSamples.main_add) SimSamples.sg_empty sgF out SN /\
                   out = bs "in 42" ++ [10] ++ bs "42 1" ++ [10] ++ bs "in 84" ++ [10]) /\
  (exists X b', b_code SimSamples.s_end = b_code SimSamples.s_main ++ X /\
     lruns (call_of SimSamples.script_add 1) [] [] [] X (b', bs "in 42" ++ [10] ++ bs "42 1" ++ [10] ++ bs "in 84" ++ [10])).
Proof. exact (conj SimSamples.add_fun_ok (conj SimSamples.call_sample_derivation SimSamples.call_sample_applies)). Qed.

(* func divmod(a int, b int) (int, int) { return a / b, a % b }   x := 17; y := 5; x, y = y, x; q, r := divmod(x, y);
   print(x, y, q, r): the swap uses the old values, both results arrive in order - the hypotheses hold and the theorem gives
   the run. *)
Example C02_swap_and_two_results :
  fun_ok SimSamples.script_dm SimSamples.F_dm /\
  (exists sgF out, J (scall_at [SimSamples.F_dm] 1 0 2) SimSamples.XS_dm (Prog SimSamples.main_dm) SimSamples.sg_empty sgF out SN /\
                   out = bs "5 17 0 5" ++ [10]) /\
  (exists X b', b_code SimSamples.s_dm_end = b_code SimSamples.s_dm_main ++ X /\
     lruns (call_of SimSamples.script_dm 1) [] [] [] X (b', bs "5 17 0 5" ++ [10])).
Proof. exact (conj SimSamples.dm_fun_ok (conj SimSamples.swap_sample_derivation SimSamples.swap_sample_applies)). Qed.

(* func abs(a int) int { if a < 0 { return 0 - a }; return a }   func show(a int) { print("v", a) }
   x := abs(0 - 5); y := abs(3); show(x + y): a return inside a branch, a function without results, two definitions. *)
Example C02_early_return_and_no_result :
  fun_ok SimSamples.script_abs SimSamples.F_abs /\ fun_ok SimSamples.script_abs SimSamples.F_show /\
  (exists sgF out, J (scall_at [SimSamples.F_abs; SimSamples.F_show] 1 0 3) SimSamples.XS_abs (Prog SimSamples.main_abs) SimSamples.sg_empty sgF out SN /\
                   out = bs "v 8" ++ [10]) /\
  (exists X b', b_code SimSamples.s_abs_end = b_code SimSamples.s_abs_main ++ X /\
     lruns (call_of SimSamples.script_abs 1) [] [] [] X (b', bs "v 8" ++ [10])).
Proof. exact (conj SimSamples.abs_fun_ok (conj SimSamples.show_fun_ok (conj SimSamples.abs_sample_derivation SimSamples.abs_sample_applies))). Qed.

(* func find(n int) int { for i := 0; i < 10; i++ { if i * i >= n { return i } }; return 0 - 1 }   r := find(10); print(r):
   a return inside a loop ends the loop and the function. *)
Example C02_return_inside_loop :
  fun_ok SimSamples.script_find SimSamples.F_find /\
  (exists sgF out, J (scall_at [SimSamples.F_find] 1 1 2) SimSamples.XS_find (Prog SimSamples.main_find) SimSamples.sg_empty sgF out SN /\
                   out = bs "4" ++ [10]) /\
  (exists X b', b_code SimSamples.s_find_end = b_code SimSamples.s_find_main ++ X /\
     lruns (call_of SimSamples.script_find 1) [] [] [] X (b', bs "4" ++ [10])).
Proof. exact (conj SimSamples.find_fun_ok (conj SimSamples.find_sample_derivation SimSamples.find_sample_applies)). Qed.

(* The source semantics of calls is executable too: the interpreter's calls (look the definition up, check that it may be
   called here, bind, run the body with calls one level down, take the returned values) are source calls scall_at, so an
   answer of the interpreter for code with calls is a J derivation over scall_at - the hypothesis of C02_calls_preserved. *)
Theorem C02_calls_executable : forall defs fuel d klo mlo XS body sg sg' out,
  jrun fuel XS (jcall_at defs fuel d klo mlo XS) (Prog body) sg = Some (sg', out, SN) -> env_ok sg ->
  J (scall_at defs d klo mlo) XS (Prog body) sg sg' out SN.
Proof. exact (fun defs fuel d klo mlo XS body sg sg' out => jrun_program_sound defs fuel d klo mlo XS (Prog body) sg sg' out SN). Qed.
Print Assumptions C02_calls_executable.

Example C02_sample : mangled 1 (bs "x") = bs "f1_x" /\ mangled 12 (bs "_h3") = bs "f12__h3".
Proof. vm_compute. split; reflexivity. Qed.
