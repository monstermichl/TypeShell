(* C05  Batch target preserves the same program semantics under cmd.exe's rules.  PARTIAL.
   There is no cmd.exe in the sandbox.  Cmd/CmdModel.v is an executable model of cmd.exe for the subset of Batch
   the converter emits (statement-at-a-time reading, parse-time percent expansion, run-time delayed expansion,
   forward-then-wrap label search, call frames, numeric-versus-string IF, signed 32-bit set /A); it cannot be
   compared with the real interpreter (trusted base).  Proved about its building blocks, for all operands:
   - set /A on 32-bit operands returns what the reference arithmetic (Sem/Src.v) returns whenever that result is
     itself a 32-bit number (C05_arithmetic_agrees);
   - IF on the printed forms of two integers compares the integers (C05_if_numeric) -- but on quoted operands it
     compares strings, so 10 LSS 9 holds (C05_if_quoted_refuted: the defect of the slice helpers repaired in /repo);
   - a label that is defined once is found from every position (C05_label_found);
   - what the converter prints for an integer is read back by IF and set /A as that integer (C05_number_roundtrip).
   The statement over whole programs (the script's output under the model equals the reference semantics and the
   Bash run) is decided on generated programs by every run of the check, not proved. *)
From Verif Require Import Base.Bytestr Front.Ast Back.Transpile Back.BatchConv Back.BatchSyntax Back.TraverseInv Back.BatchLabels Sem.Src Cmd.CmdModel Cmd.CmdFacts Cmd.CmdWitness.
From Coq Require Import ZArith.
Open Scope N_scope.

Theorem C05_arithmetic_agrees : forall op a b r,
  in32 a -> in32 b -> Src.arith op a b = Some r -> in32 r -> arith_op (op_char op) a b = Some r.
Proof. intros op a b r _ _. apply arith_op_src. Qed.
Print Assumptions C05_arithmetic_agrees.

Theorem C05_number_roundtrip : forall z, as_int (dec_Z z) = Some z.
Proof. exact as_int_dec_Z. Qed.
Print Assumptions C05_number_roundtrip.

Theorem C05_if_numeric : forall op f a b,
  In (op, f) cmp_table -> in32 a -> in32 b -> compare_texts op (dec_Z a) (dec_Z b) = Some (f a b).
Proof. intros op f a b Hin _ _. apply if_compares_integers, Hin. Qed.
Print Assumptions C05_if_numeric.

Theorem C05_if_quoted_refuted :
  compare_texts kw_lss (quoted (dec_Z 10)) (quoted (dec_Z 9)) = Some true
  /\ compare_texts kw_lss (dec_Z 10) (dec_Z 9) = Some false.
Proof. exact if_quoted_10_lss_9. Qed.
Print Assumptions C05_if_quoted_refuted.

Theorem C05_label_found : forall sc label i start,
  let want := lower (drop_while (fun c => c =? 58) label) in
  beq want kw_eof = false -> occurs_once (sc_info sc) want i -> find_label sc label start = Some i.
Proof. exact find_label_once. Qed.
Print Assumptions C05_label_found.

(* Label allocation (the state this property is anchored in: ifCounter, forCounter, endLabels, ifs): for EVERY program
   whose function names do not start with an underscore, each label of the allocated families _i<n>, _f<n>, _e<n> is
   defined at most once in the whole emitted script (start lines, helper routines, functions, top level, end lines) -- any nesting and sequencing of loops and conditionals, any
   number of functions -- and the labels the counters would hand out next are unused. *)
Theorem C05_labels_unique : forall body script st,
  emit_batch body = TOk script st -> names_ok_all plain_name body = true ->
  forall c k, fam c -> (cnt (lab c k) (batch_lines st) <= 1)%nat.
Proof. exact batch_script_family_labels_unique. Qed.
Print Assumptions C05_labels_unique.

Theorem C05_next_labels_fresh : forall body script st,
  emit_batch body = TOk script st -> names_ok_all plain_name body = true ->
  forall k, (w_if_counter st <= k)%nat -> cnt (lab 105 k) (concat (rev (w_funcs_code st)) ++ w_global st) = 0%nat.
Proof.
  intros body script st H Hn k Hk. destruct (emit_batch_good body script st H Hn) as (s & [(A & _) _] & ->).
  rewrite cnt_app, cnt_concat_rev, <- cnt_app. exact (famst_fresh _ _ _ _ A k Hk).
Qed.
Print Assumptions C05_next_labels_fresh.

(* non-vacuity: two sequential loops and a nested one get three different label pairs *)
Example C05_labels_sample :
  let loop b := SFor None (EBool true) None b in
  match emit_batch [loop [SBreak]; loop [loop [SContinue]; SBreak]] with
  | TOk _ st => map (fun k => cnt (lab 102 k) (concat (rev (w_funcs_code st)) ++ w_global st)) [0; 1; 2; 3]%nat = [1; 1; 1; 0]%nat
                /\ map (fun k => cnt (lab 101 k) (concat (rev (w_funcs_code st)) ++ w_global st)) [0; 1; 2; 3]%nat = [1; 1; 1; 0]%nat
  | _ => False
  end.
Proof. vm_compute. split; reflexivity. Qed.

(* The recorded finding, computed on the models of parser, converter, cmd.exe and the reference semantics: after a
   panic inside a function the Batch script goes on (prints after), the program itself ends. *)
Theorem C05_panic_in_function_refuted :
  panic_runs = Some (CmdRan (lines3 (bs "before") (bs "panic: boom") (bs "after")) 1%Z,
                     Ran (bs "before" ++ [10] ++ bs "panic: boom" ++ [10]) 1%Z []).
Proof. vm_compute. reflexivity. Qed.
Print Assumptions C05_panic_in_function_refuted.

(* non-vacuity: a small script runs under the model *)
Example C05_sample : cmd_run 100 demo_script = CmdRan (bs "f a 2" ++ [10] ++ bs "42 lss 5" ++ [10]) 3.
Proof. exact demo_run. Qed.
