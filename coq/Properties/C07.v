(* C07  Names resolve lexically; out-of-scope or misplaced constructs are rejected.
   (1) General, for every context and every continuation of the token stream: break/continue outside a loop,
   return outside a function, a function definition below top level and the use of an undefined variable are
   errors of the statement parser.  (2) The table of (definition site, use site) pairs and placements
   (gen/C07Table.v, 96 programs generated by tools/c07table.py) is decided inside Coq: the model of the whole
   pipeline accepts exactly the lexically valid ones.  The general soundness statement over all programs
   is not proved. *)
From Verif Require Import Base.Bytestr gen.Tables Front.FrontModel Front.ScopeFacts Front.Prefix Front.TableCheck gen.C07Table.
Open Scope N_scope.

Theorem C07_break_needs_loop : forall prefix c f s,
  starts_with BREAK s -> find_scope c ScFor = false -> p_stmt prefix c (S f) s = Err.
Proof. exact (fun prefix c f => misplaced_rejected prefix c f BREAK). Qed.
Print Assumptions C07_break_needs_loop.

Theorem C07_continue_needs_loop : forall prefix c f s,
  starts_with CONTINUE s -> find_scope c ScFor = false -> p_stmt prefix c (S f) s = Err.
Proof. exact (fun prefix c f => misplaced_rejected prefix c f CONTINUE). Qed.
Print Assumptions C07_continue_needs_loop.

Theorem C07_return_needs_function : forall prefix c f s,
  starts_with RETURN s -> find_scope c ScFunction = false -> p_stmt prefix c (S f) s = Err.
Proof. exact (fun prefix c f => misplaced_rejected prefix c f RETURN). Qed.
Print Assumptions C07_return_needs_function.

Theorem C07_func_needs_top_level : forall prefix c f s,
  starts_with FUNCTION_DEFINITION s -> is_global c = false -> p_stmt prefix c (S f) s = Err.
Proof. exact (fun prefix c f => misplaced_rejected prefix c f FUNCTION_DEFINITION). Qed.
Print Assumptions C07_func_needs_top_level.

Theorem C07_undefined_variable : forall prefix c s name r,
  toks s = (IDENTIFIER, name) :: r -> find_var c name prefix (is_global c) = None -> p_var_eval prefix c s = Err.
Proof. exact undefined_variable_rejected. Qed.
Print Assumptions C07_undefined_variable.

(* no prelude: nothing is lexed or parsed in advance *)
Lemma c07_all_ok : forallb (entry_ok (verdict_tail [] 1 [] [] [])) c07_table = true.
Proof. vm_compute. reflexivity. Qed.

(* every entry of the scoping table: accepted by both targets iff lexically valid *)
Theorem C07_table : forall src acc, In (src, acc, []) c07_table ->
  verdict_of src = if acc then Accepted else Rejected.
Proof. exact (table_entries [] c07_table 0 1 [] lexed_nil [] [] (fun _ _ => I) c07_all_ok). Qed.
Print Assumptions C07_table.
