(* C12  Program meaning is independent of layout. *)
From Verif Require Import Base.Bytestr gen.Tables Lex.LexModel Lex.LexSpec Lex.LexLayout Front.Squeeze
  Front.FrontModel Front.FrontFacts Back.Pipeline.
Open Scope N_scope.

(* Two renderings of one token sequence that differ only in blanks, tabs, line and block comments,
   blank or comment-only lines at line breaks and the final newline hand the parser the same tokens. *)
Theorem C12_tokens_layout_independent : forall l1 l2,
  items_ok l1 [] = true -> items_ok l2 [] = true ->
  replace_crlf (render l1) = render l1 -> replace_crlf (render l2) = render l2 ->
  squeeze (sig l1 ++ [(EOF, [])]) = squeeze (sig l2 ++ [(EOF, [])]) ->
  parser_input (tokenize (render l1)) = parser_input (tokenize (render l2)).
Proof. intros. rewrite !parser_input_items by assumption. congruence. Qed.
Print Assumptions C12_tokens_layout_independent.

(* Blanks and comments never reach the parser ... *)
Theorem C12_layout_items_invisible : forall items, sig (filter (fun it => negb (is_layout it)) items) = sig items.
Proof.
  induction items as [|it items IH]; [reflexivity|].
  cbn [filter]. destruct (is_layout it) eqn:E; cbn [negb].
  - cbn [sig]. destruct it; try discriminate; cbn [item_tok]; cbn [is_layout] in E; try rewrite E; exact IH.
  - cbn [sig]. rewrite IH. reflexivity.
Qed.
Print Assumptions C12_layout_items_invisible.

(* ... and a line break may be repeated (blank or comment-only lines). *)
Theorem C12_blank_lines : forall a b,
  squeeze (a ++ (NEWLINE, [10]) :: (NEWLINE, [10]) :: b) = squeeze (a ++ (NEWLINE, [10]) :: b).
Proof. intros a b. apply blank_line_irrelevant; reflexivity. Qed.
Print Assumptions C12_blank_lines.

(* CRLF versus LF. *)
Theorem C12_crlf : forall s, no_cr s = true -> tokenize (to_crlf s) = tokenize s.
Proof. exact crlf_irrelevant. Qed.
Print Assumptions C12_crlf.

(* The whole pipeline sees the main file only through those tokens: same tokens, same verdict and
   byte-identical script, for either target. *)
Theorem C12_script_depends_on_tokens_only : forall E path fe1 fe2 t,
  parser_input (tokenize (fe_content fe1)) = parser_input (tokenize (fe_content fe2)) ->
  transpile_entry E path fe1 t = transpile_entry E path fe2 t.
Proof.
  intros E path fe1 fe2 t H. unfold transpile_entry.
  rewrite (parse_entry_tokens E _ _ _ path fe1 fe2 H). reflexivity.
Qed.
Print Assumptions C12_script_depends_on_tokens_only.

(* Non-vacuity: two layouts of one program. *)
Definition layout_a : list item :=
  [ IWord (bs "x"); IPunct (bs ":=") SHORT_INIT_OPERATOR; INum false (bs "1") None; IPunct [10] NEWLINE;
    IWord (bs "print"); IPunct (bs "(") OPENING_ROUND_BRACKET; IWord (bs "x"); IPunct (bs ")") CLOSING_ROUND_BRACKET; IPunct [10] NEWLINE ].
Definition layout_b : list item :=
  [ IPunct [10] NEWLINE; ILine (bs " head"); IPunct [10] NEWLINE; IPunct [9] SPACE; IWord (bs "x"); IPunct [32] SPACE;
    IPunct (bs ":=") SHORT_INIT_OPERATOR; IBlock (bs "c"); INum false (bs "1") None; IPunct [32] SPACE; IPunct [10] NEWLINE;
    IPunct [10] NEWLINE; IPunct [32] SPACE; ILine (bs "only a comment"); IPunct [10] NEWLINE;
    IWord (bs "print"); IPunct [32] SPACE; IPunct (bs "(") OPENING_ROUND_BRACKET; IPunct [32] SPACE; IWord (bs "x");
    IPunct (bs ")") CLOSING_ROUND_BRACKET ].
Example C12_sample :
  items_ok layout_a [] = true /\ items_ok layout_b [] = true /\
  squeeze (sig layout_a ++ [(EOF, [])]) = squeeze (sig layout_b ++ [(EOF, [])]) /\
  render layout_a <> render layout_b.
Proof. vm_compute. repeat split; try reflexivity. discriminate. Qed.
