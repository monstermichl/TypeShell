(* C16  Every emitted script is well-formed for its interpreter.  Bash half proved for all programs;
   Batch half: checker validated per run (the statement for Batch scripts is not proved). *)
From Verif Require Import Base.Bytestr Back.BashLines Back.Transpile Back.BashConv Back.BashSyntax Back.BashFacts Back.BatchConv Back.BatchSyntax Back.TraverseInv Back.BatchLabels.
Open Scope N_scope.

(* For every program all of whose statements emit a command (the parser only builds such programs:
   non-empty variable lists, only calls as expression statements), the emitted Bash script
   - is the rendering of shebang + helper definitions + code,
   - and passes the syntax check: if/elif/else/fi, while/done and function braces are properly nested and
     every then-part, else-part, loop body and function body contains at least one command. *)

Theorem C16_bash_well_formed : forall body script st,
  emit_bash body = TOk script st -> emits_all body = true ->
  well_formed (b_start st ++ b_code st) = true /\ script = render_script (b_start st ++ b_code st)
  /\ call_lines (b_code st) = calls_block body.
Proof.
  intros body script st H He. destruct (emit_bash_code body script st H) as (R & C & W). split; [|split; assumption].
  destruct (W He) as (ls & -> & B). unfold well_formed. cbn [check check_line]. rewrite (block_check _ _ B) by discriminate. reflexivity.
Qed.
Print Assumptions C16_bash_well_formed.

(* The two building blocks, for every expression and every statement, at any nesting depth. *)
Theorem C16_expression_lines : forall e used s vs s',
  t_expr bash_conv e used s = TOk vs s' ->
  exists ls, ext s s' ls /\ forallb is_simple ls = true /\ call_lines ls = calls_expr e.
Proof. exact t_expr_ok. Qed.
Print Assumptions C16_expression_lines.

Theorem C16_statement_block : forall st s s',
  t_stmt bash_conv st s = TOk tt s' -> emits st = true ->
  exists ls, sext s s' ls /\ ls <> [] /\ (forall stk, stk <> [] -> check ls stk = Some (mark stk)) /\ call_lines ls = calls_stmt st.
Proof.
  intros st s s' H He. destruct (appends_sext _ _ _ _ _ _ (t_stmt_ok st) H) as (ls & E & C & B). specialize (B He). exists ls.
  split; [exact E|]. split; [apply B|]. split; [intros stk Hn; exact (block_check ls stk B Hn)|exact C].
Qed.
Print Assumptions C16_statement_block.

(* Batch half, the part that is proved for every program: the labels of loops and conditionals are defined once. *)
Theorem C16_batch_labels_unique : forall body script st,
  emit_batch body = TOk script st -> names_ok_all plain_name body = true ->
  forall c k, fam c -> (cnt (lab c k) (batch_lines st) <= 1)%nat.
Proof. exact batch_script_family_labels_unique. Qed.
Print Assumptions C16_batch_labels_unique.

(* Non-vacuity and the role of the hypothesis: an if whose body is an unused expression (which the parser
   now rejects) would leave the then-part empty -- the checker sees it. *)
Example C16_empty_then_rejected :
  well_formed [LShebang; LIf (bs "if") (ALit (bs "1")); LFi] = false
  /\ well_formed [LShebang; LIf (bs "if") (ALit (bs "1")); LNop; LFi] = true.
Proof. vm_compute. split; reflexivity. Qed.
