(* C17  write, read and exists behave as a line store over the file system.
   Proved for every history of operations, every path and every content that is not empty and does not end in
   a newline: the emitted lines (printf with > or >>, cat in a command substitution, the -e test) implement the
   line store of the reference semantics -- same values handed back, same files (C17_history); plus the
   individual clauses.  The excluded corner is a real failure (C17_trailing_newline_refuted, known finding).
   Paths and contents reach these lines through double-quoted words (C08 theorems); that the implementation's
   scripts behave like sh_step on real files is decided by the fsops stream (every run). *)
From Verif Require Import Base.Bytestr Sem.FsSem.
Open Scope N_scope.

Theorem C17_history : forall ops st f,
  R st f -> Inv st -> forallb op_good ops = true ->
  snd (run_spec st ops) = snd (run_sh f ops) /\ R (fst (run_spec st ops)) (fst (run_sh f ops)).
Proof.
  induction ops as [|o ops IH]; intros st f HR HI Hg; [split; [reflexivity|exact HR]|].
  simpl in Hg. apply andb_true_iff in Hg as [Ho Hops].
  destruct (step_refines st f o HR HI Ho) as [HR' [HI' Hout]].
  cbn [run_spec run_sh]. destruct (spec_step st o) as [s1 out1]. destruct (sh_step f o) as [f1 out1'].
  cbn [fst snd] in *. specialize (IH s1 f1 HR' HI' Hops).
  destruct (run_spec s1 ops) as [s2 outs]. destruct (run_sh f1 ops) as [f2 outs']. cbn [fst snd] in *.
  destruct IH as [E1 E2]. split; [congruence|exact E2].
Qed.
Print Assumptions C17_history.

Theorem C17_write_then_read : forall f p s, good s = true ->
  snd (sh_step (fst (sh_step f (OWrite p s false))) (ORead p)) = Some s
  /\ fget p (fst (sh_step f (OWrite p s false))) = Some (s ++ [10]).
Proof. exact write_then_read. Qed.
Print Assumptions C17_write_then_read.

Theorem C17_append : forall f p old s, good s = true -> good old = true -> fget p f = Some (old ++ [10]) ->
  snd (sh_step (fst (sh_step f (OWrite p s true))) (ORead p)) = Some (old ++ [10] ++ s).
Proof.
  intros f p old s G Go H. cbn [sh_step fst snd]. rewrite H, fget_fset_same. f_equal.
  replace ((old ++ [10]) ++ s ++ [10]) with ((old ++ [10] ++ s) ++ [10]) by (rewrite <- !app_assoc; reflexivity).
  apply strip_good. unfold good in *. rewrite !rev_app_distr. destruct (rev s); [discriminate|exact G].
Qed.
Print Assumptions C17_append.

Theorem C17_other_paths_untouched : forall f p s app p2, beq p2 p = false -> fget p2 (fst (sh_step f (OWrite p s app))) = fget p2 f.
Proof. intros f p s app p2 H. cbn [sh_step fst]. apply fget_fset_other. exact H. Qed.
Print Assumptions C17_other_paths_untouched.

Theorem C17_exists : forall f p, snd (sh_step f (OExists p)) = Some (bool_line (match fget p f with Some _ => true | None => false end)).
Proof. reflexivity. Qed.
Print Assumptions C17_exists.

Theorem C17_trailing_newline_refuted :
  exists s, snd (sh_step (fst (sh_step [] (OWrite (bs "p") s false))) (ORead (bs "p"))) <> Some s.
Proof. exists [97; 10]. vm_compute. discriminate. Qed.
Print Assumptions C17_trailing_newline_refuted.

(* non-vacuity: the empty store and the empty file system are related and satisfy the invariant *)
Example C17_initial : R [] [] /\ Inv [].
Proof. split; [intro p; reflexivity|intros p ls H; discriminate]. Qed.
