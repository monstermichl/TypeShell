(* C13  Transpilation is total: a script or an error, never a crash or a hang.  PARTIAL on the model side:
   termination of the lexer and of the used-function closure are proved; for the parser the fuel supplied
   (tok_fuel) is checked by the correspondence run, not proved (C13_full_statement). *)
From Verif Require Import Lex.LexModel Lex.LexTotal Front.FrontModel Back.Pipeline.
Open Scope N_scope.

(* The lexer terminates on every byte string with an answer (tokens or an error). *)
Theorem C13_lexer_total : forall src, tokenize src <> LexFuel.
Proof. exact tokenize_total. Qed.
Print Assumptions C13_lexer_total.

(* The result of the pipeline is a script or a failure, never both: a script comes with no error. *)
Theorem C13_script_xor_error : forall E path t,
  (exists s, transpile E path t = Script s) \/ transpile E path t = Failed
  \/ transpile E path t = Crashed \/ transpile E path t = OutOfFuel.
Proof. intros. destruct (transpile E path t); eauto. Qed.
Print Assumptions C13_script_xor_error.

(* A missing main file is an error. *)
Theorem C13_missing_file : forall E path t, aget path (e_fs E) = None -> transpile E path t = Failed.
Proof. intros E path t H. unfold transpile. rewrite H. reflexivity. Qed.
Print Assumptions C13_missing_file.

(* A lexical error in the main file is an error of the whole transpilation. *)
Theorem C13_lex_error_fails : forall E path fe t,
  tokenize (fe_content fe) = LexErr -> transpile_entry E path fe t = Failed.
Proof. intros E path fe t H. unfold transpile_entry. cbn [parse_entry]. rewrite H. reflexivity. Qed.
Print Assumptions C13_lex_error_fails.

(* what is not proved: the fuel the model supplies is always enough, and no converter method is called
   with an empty stack (no Crashed) *)
Definition C13_full_statement : Prop :=
  forall E path t, transpile E path t <> OutOfFuel /\ transpile E path t <> Crashed.
