(* C03  Bash target preserves slice and string operation semantics.  PARTIAL.
   Proved: the reference semantics of element assignment is "grow and zero-fill" exactly as the property words it,
   substrings are Go's s[a:b] through the desugared inclusive pair, and the emitted script structure/call order
   (C16/C04).  The simulation of slices in the shell (arrays named through _dv<n>, eval) is decided by executing
   generated programs (aliasing, growth, copy, range, all subscript forms) against Sem/Src.v. *)
From Verif Require Import Base.Bytestr Base.ListFacts Sem.Src Sem.SliceFacts.
From Coq Require Import ZArith.

Theorem C03_store_length : forall l n v z, length (slice_store l n v z) = Nat.max (length l) (S n).
Proof.
  intros l n v z. unfold slice_store. destruct (n <? length l)%nat eqn:E.
  - apply Nat.ltb_lt in E. rewrite replace_nth_length. lia.
  - apply Nat.ltb_ge in E. rewrite !app_length, repeat_length. simpl. lia.
Qed.
Print Assumptions C03_store_length.

Theorem C03_store_written : forall l n v z, nth_error (slice_store l n v z) n = Some v.
Proof.
  intros l n v z. unfold slice_store. destruct (n <? length l)%nat eqn:E.
  - apply Nat.ltb_lt in E. apply replace_nth_same. exact E.
  - apply Nat.ltb_ge in E. rewrite nth_error_app2 by lia. rewrite nth_error_app2 by (rewrite repeat_length; lia).
    rewrite repeat_length. replace (n - length l - (n - length l))%nat with 0%nat by lia. reflexivity.
Qed.
Print Assumptions C03_store_written.

Theorem C03_store_keeps_others : forall l n v z m, (m < length l)%nat -> m <> n -> nth_error (slice_store l n v z) m = nth_error l m.
Proof.
  intros l n v z m Hm Hn. unfold slice_store. destruct (n <? length l)%nat eqn:E.
  - apply replace_nth_other. congruence.
  - apply nth_error_app1. exact Hm.
Qed.
Print Assumptions C03_store_keeps_others.

Theorem C03_store_zero_fills_gap : forall l n v z m, (length l <= m < n)%nat -> nth_error (slice_store l n v z) m = Some z.
Proof.
  intros l n v z m Hm. unfold slice_store. destruct (n <? length l)%nat eqn:E; [apply Nat.ltb_lt in E; lia|].
  rewrite nth_error_app2 by lia. rewrite nth_error_app1 by (rewrite repeat_length; lia).
  apply nth_error_repeat. lia.
Qed.
Print Assumptions C03_store_zero_fills_gap.

Theorem C03_substring_length : forall (s : bytes) a n, (a + n <= length s)%nat -> length (sub_bytes s a n) = n.
Proof. exact substring_length. Qed.
Print Assumptions C03_substring_length.

(* copy(dst, src): the interpreter stores exactly copy_store (Src.v, ECopy) and reports length src *)
Theorem C03_copy_prefix : forall ls ld i, (i < length ls)%nat -> nth_error (copy_store ls ld) i = nth_error ls i.
Proof. intros ls ld i H. unfold copy_store. apply nth_error_app1. exact H. Qed.
Print Assumptions C03_copy_prefix.

Theorem C03_copy_keeps_tail : forall ls ld i, (length ls <= i)%nat -> nth_error (copy_store ls ld) i = nth_error ld i.
Proof. intros ls ld i H. unfold copy_store. rewrite nth_error_app2 by exact H. rewrite nth_error_skipn. f_equal. lia. Qed.
Print Assumptions C03_copy_keeps_tail.

Theorem C03_copy_length : forall ls ld, length (copy_store ls ld) = Nat.max (length ls) (length ld).
Proof. intros ls ld. unfold copy_store. rewrite app_length, skipn_length. lia. Qed.
Print Assumptions C03_copy_length.

(* reference semantics of the heap: a store through an id is what every holder of that id reads, no other slice changes,
   nothing but the heap changes, and a new slice never reuses an id (the _dvc counter of the script) *)
Theorem C03_write_visible_through_alias : forall id l s, (id < length (s_heap s))%nat ->
  exists s', set_slice id l s = Done tt s' /\ get_slice id s' = Done l s' /\ length (s_heap s') = length (s_heap s).
Proof.
  intros id l s H. eexists. split; [reflexivity|]. unfold get_slice; simpl. rewrite replace_nth_same by exact H.
  split; [reflexivity|apply replace_nth_length].
Qed.
Print Assumptions C03_write_visible_through_alias.

Theorem C03_write_keeps_other_slices : forall id id' l s s', set_slice id l s = Done tt s' -> id <> id' ->
  nth_error (s_heap s') id' = nth_error (s_heap s) id'.
Proof. intros id id' l s s' E Hn. inversion E; subst; simpl. apply replace_nth_other. exact Hn. Qed.
Print Assumptions C03_write_keeps_other_slices.

Theorem C03_write_changes_heap_only : forall id l s s', set_slice id l s = Done tt s' ->
  s_globals s' = s_globals s /\ s_frame s' = s_frame s /\ s_out s' = s_out s /\ s_files s' = s_files s /\ s_stdin s' = s_stdin s.
Proof. intros id l s s' E. inversion E; subst; simpl. repeat split. Qed.
Print Assumptions C03_write_changes_heap_only.

Theorem C03_new_slice_is_fresh : forall l s v s', new_slice l s = Done v s' ->
  exists id, v = VSlice id /\ nth_error (s_heap s) id = None /\ nth_error (s_heap s') id = Some l
    /\ forall id', (id' < length (s_heap s))%nat -> nth_error (s_heap s') id' = nth_error (s_heap s) id'.
Proof.
  intros l s v s' E. inversion E; subst; simpl. exists (length (s_heap s)). split; [reflexivity|]. split.
  - apply nth_error_None. lia.
  - split.
    + rewrite nth_error_app2 by lia. rewrite Nat.sub_diag. reflexivity.
    + intros id' H. apply nth_error_app1. exact H.
Qed.
Print Assumptions C03_new_slice_is_fresh.

Theorem C03_element_store_through_alias : forall id n v z s l, get_slice id s = Done l s ->
  exists s', set_slice id (slice_store l n v z) s = Done tt s'
    /\ (exists l', get_slice id s' = Done l' s' /\ nth_error l' n = Some v /\ length l' = Nat.max (length l) (S n)).
Proof.
  intros id n v z s l G. unfold get_slice in G. destruct (nth_error (s_heap s) id) as [l0|] eqn:E; [|discriminate].
  inversion G; subst l0. assert (H : (id < length (s_heap s))%nat) by (apply nth_error_Some; congruence).
  destruct (C03_write_visible_through_alias id (slice_store l n v z) s H) as [s' [E1 [E2 _]]].
  exists s'. split; [exact E1|]. eexists. split; [exact E2|]. split; [apply C03_store_written|apply C03_store_length].
Qed.
Print Assumptions C03_element_store_through_alias.

Example C03_copy_sample :
  copy_store [VInt 7; VInt 8] [VInt 1; VInt 2; VInt 3] = [VInt 7; VInt 8; VInt 3]
  /\ copy_store [VInt 7; VInt 8] [] = [VInt 7; VInt 8]
  /\ get_slice 0 (mkS [] [] [[VInt 1]] [] [] [] []) = Done [VInt 1] (mkS [] [] [[VInt 1]] [] [] [] []).
Proof. vm_compute. repeat split; reflexivity. Qed.

(* strings: the interpreter computes s[a:b], s[:b], s[a:], s[:], s[i] through the inclusive pair as sub_bytes s a (b - a) (Src.v, ESubscript) *)
Theorem C03_whole_string : forall s : bytes, sub_bytes s 0 (length s) = s.
Proof. intros s. unfold sub_bytes. simpl. apply firstn_all. Qed.
Print Assumptions C03_whole_string.

Theorem C03_single_byte : forall (s : bytes) i, (i < length s)%nat -> sub_bytes s i 1 = [nth i s 0%N].
Proof.
  intros s i. revert i; induction s as [|c s IH]; intros [|i] H; simpl in *; try lia; [reflexivity|].
  apply (IH i). lia.
Qed.
Print Assumptions C03_single_byte.

Theorem C03_adjacent_substrings : forall (s : bytes) a b c, (a <= b <= c)%nat ->
  sub_bytes s a (b - a) ++ sub_bytes s b (c - b) = sub_bytes s a (c - a).
Proof.
  intros s a b c [H1 H2]. unfold sub_bytes.
  replace (c - a)%nat with ((b - a) + (c - b))%nat by lia. rewrite firstn_add. f_equal.
  rewrite <- skipn_add. do 2 f_equal. lia.
Qed.
Print Assumptions C03_adjacent_substrings.

Theorem C03_concat_then_cut : forall s t : bytes,
  sub_bytes (s ++ t) 0 (length s) = s /\ sub_bytes (s ++ t) (length s) (length t) = t.
Proof. intros s t. unfold sub_bytes. rewrite skipn_app_length. split; [apply firstn_app_length|apply firstn_all]. Qed.
Print Assumptions C03_concat_then_cut.

(* the interpreter uses exactly slice_store *)
Example C03_store_sample :
  slice_store [VInt 1] 3 (VInt 9) (VInt 0) = [VInt 1; VInt 0; VInt 0; VInt 9]
  /\ sub_bytes (bs "hello") 1 3 = bs "ell".
Proof. vm_compute. split; reflexivity. Qed.
