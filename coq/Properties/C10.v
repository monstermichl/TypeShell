(* C10  Program behaviour is independent of how identifiers are spelled.
   Proved (Bash back-end): every name the converter creates for itself -- helper variables, return registers,
   loop flags, dynamic slice names, helper routines and their scratch variables, mangled locals -- lies in a
   decidable class (leading underscore, or f<digits>_...), mangling is injective, helper names are pairwise
   distinct; hence an identifier OUTSIDE the class is never captured (C10_unreserved_never_captured).
   The front end does not reject identifiers inside the class, and a captured name changes behaviour
   (C10_reserved_refuted, computed on the models of parser, converter and shell): known findings by class.
   Names of shell builtins, keywords and environment variables are outside the model (they need the shell's
   own name space); the check renames generated programs into all these classes and runs both versions. *)
From Verif Require Import Base.Bytestr Back.BashLines Back.BashConv Back.NameFacts Back.BatchConv Back.Reserved Sem.ExprPreserve.
Open Scope N_scope.

Theorem C10_converter_names_reserved :
  (forall s, reserved_bash (fst (next_helper s)) = true)
  /\ (forall i, reserved_bash (rv_name i) = true)
  /\ (forall k, reserved_bash (bs "_fv" ++ dec_nat k) = true)
  /\ (forall k x, reserved_bash (mangled k x) = true)
  /\ forallb reserved_bash [bs "_dvc"; bs "_ret"; bs "_ls"; bs "_ll"; bs "_i"; bs "_l"; bs "_c"; bs "_n"; bs "_v"; bs "_sah"; bs "_sch"; bs "_ssh"] = true.
Proof. exact converter_names_reserved. Qed.
Print Assumptions C10_converter_names_reserved.

Theorem C10_unreserved_never_captured : forall u,
  reserved_bash u = false ->
  (forall s, u <> fst (next_helper s)) /\ (forall i, u <> rv_name i) /\ (forall k, u <> bs "_fv" ++ dec_nat k) /\ (forall k x, u <> mangled k x)
  /\ ~ In u [bs "_dvc"; bs "_ret"; bs "_ls"; bs "_ll"; bs "_i"; bs "_l"; bs "_c"; bs "_n"; bs "_v"; bs "_sah"; bs "_sch"; bs "_ssh"].
Proof. exact unreserved_never_captured. Qed.
Print Assumptions C10_unreserved_never_captured.

Theorem C10_locals_never_meet : forall k1 k2 n1 n2, mangled k1 n1 = mangled k2 n2 -> k1 = k2 /\ n1 = n2.
Proof. exact mangled_inj. Qed.
Print Assumptions C10_locals_never_meet.

Theorem C10_helpers_distinct : forall s k1 k2, helper_name s k1 = helper_name s k2 -> k1 = k2.
Proof. exact helper_name_inj. Qed.
Print Assumptions C10_helpers_distinct.

(* The Batch back-end: the same class plus the newline variable LF under cmd.exe's case folding. *)
Theorem C10_batch_names_reserved :
  (forall s, reserved_batch (fst (w_next_helper s)) = true)
  /\ (forall i, reserved_batch (fa_name i) = true)
  /\ (forall i, reserved_batch (rv_name_w i) = true)
  /\ (forall k, reserved_batch (bs "_fv" ++ dec_nat k) = true)
  /\ (forall s x, w_funcs s <> [] -> reserved_batch (w_var_name s x false) = true)
  /\ forallb reserved_batch [bs "_e"; bs "_dvc"; bs "_len"; bs "_i"; bs "_v"; bs "_sub"; bs "_sh"; bs "_l"; bs "_te"; bs "_h"; bs "_a"; bs "LF"] = true.
Proof.
  repeat split; try reflexivity.
  intros s x H. unfold w_var_name. destruct (w_funcs s) as [|f r]; [contradiction|].
  unfold reserved_batch. change (bs "f" ++ dec_nat (w_func_counter s) ++ bs "_" ++ x) with (mangled (w_func_counter s) x).
  destruct converter_names_reserved as [_ [_ [_ [D _]]]]. rewrite (D (w_func_counter s) x). reflexivity.
Qed.
Print Assumptions C10_batch_names_reserved.

Theorem C10_batch_unreserved_never_captured : forall u,
  reserved_batch u = false ->
  (forall s, u <> fst (w_next_helper s)) /\ (forall i, u <> fa_name i) /\ (forall i, u <> rv_name_w i) /\ (forall k, u <> bs "_fv" ++ dec_nat k)
  /\ (forall s x, w_funcs s <> [] -> u <> w_var_name s x false)
  /\ ~ In u [bs "_e"; bs "_dvc"; bs "_len"; bs "_i"; bs "_v"; bs "_sub"; bs "_sh"; bs "_l"; bs "_te"; bs "_h"; bs "_a"; bs "LF"].
Proof.
  intros u H. destruct C10_batch_names_reserved as (A & B & C & D & E & F). pose proof (neq_of_class _ u H) as Ne.
  rewrite forallb_forall in F.
  repeat split; [intro s; apply Ne, A|intro i; apply Ne, B|intro i; apply Ne, C|intro k; apply Ne, D|intros s x Hf; apply Ne, E, Hf
                |intro I; exact (Ne u (F u I) eq_refl)].
Qed.
Print Assumptions C10_batch_unreserved_never_captured.

(* the program is accepted; in the source _h0 stays 5 and x becomes 12; the script leaves 6 in _h0 *)
Theorem C10_reserved_refuted : capture_result = Some (bs "6", bs "12").
Proof. vm_compute. reflexivity. Qed.
Print Assumptions C10_reserved_refuted.

(* non-vacuity: ordinary identifiers are outside the class, the converter's own are inside *)
Example C10_sample :
  map reserved_bash [bs "total"; bs "f"; bs "f1"; bs "fx_1"; bs "x_h0"; bs "_h0"; bs "f1_a"; bs "f12__h3"; bs "_"]
  = [false; false; false; false; false; true; true; true; true].
Proof. reflexivity. Qed.
