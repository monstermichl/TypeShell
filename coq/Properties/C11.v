(* C11  Tokenisation is faithful.  The lemmas behind the statements are in Lex/LexProofs.v, Lex/LexTotal.v,
   Lex/LexLayout.v.  [tokenize] is the model of lexer.Tokenize (Lex/LexModel.v), tied to the Go code by
   the correspondence check; [item], [render], [expected], [items_ok] are the specification (Lex/LexSpec.v). *)
From Verif Require Import Base.Bytestr gen.Tables Lex.LexModel Lex.LexSpec Lex.LexProofs Lex.LexTotal Lex.LexLayout.
Open Scope N_scope.

(* Every sequence of grammar tokens, rendered with any legal separators and comments between them,
   is split exactly along the grammar: types, Go-unquoted string values, and the row and column of
   each token's first character; an EOF token at the final position closes the list. *)
Theorem C11_roundtrip : forall items,
  items_ok items [] = true -> replace_crlf (render items) = render items ->
  tokenize (render items) = LexOk (expected items (1, 1) ++ [eof_at (advance (render items) (1, 1))]).
Proof. exact tokenize_items. Qed.
Print Assumptions C11_roundtrip.

(* The value of a string token is the unquoted content of its literal, byte for byte. *)
Theorem C11_string_value : forall raw cs rest,
  item_wf (IStr raw cs) = true ->
  lex_step (item_text (IStr raw cs) ++ rest) = StepTok STRING_LITERAL (map schar_value cs) rest.
Proof. exact lex_step_str. Qed.
Print Assumptions C11_string_value.

(* CRLF line ends are the same as LF line ends. *)
Theorem C11_crlf : forall s, no_cr s = true -> tokenize (to_crlf s) = tokenize s.
Proof. exact crlf_irrelevant. Qed.
Print Assumptions C11_crlf.

(* An unterminated string is an error, wherever it stands. *)
Theorem C11_unterminated : forall items raw cs,
  let tail := quote raw :: concat (map schar_text cs) in
  items_ok items tail = true -> forallb (schar_wf raw) cs = true ->
  replace_crlf (render items ++ tail) = render items ++ tail ->
  tokenize (render items ++ tail) = LexErr.
Proof.
  intros items raw cs tail Hok Hwf Hcr.
  apply tokenize_items_err; [exact Hok|exact Hcr|discriminate|apply lex_step_unterminated, Hwf].
Qed.
Print Assumptions C11_unterminated.

(* A character with which no token starts is an error. *)
Theorem C11_unknown_character : forall items c r,
  unknown_byte c = true -> items_ok items (c :: r) = true ->
  replace_crlf (render items ++ c :: r) = render items ++ c :: r ->
  tokenize (render items ++ c :: r) = LexErr.
Proof.
  intros items c r Hu Hok Hcr.
  apply tokenize_items_err; [exact Hok|exact Hcr|discriminate|apply lex_step_unknown, Hu].
Qed.
Print Assumptions C11_unknown_character.

(* The lexer terminates on every input (the model's fuel is never exhausted). *)
Theorem C11_total : forall src, tokenize src <> LexFuel.
Proof. exact tokenize_total. Qed.
Print Assumptions C11_total.

(* Non-vacuity: a non-trivial item list meeting the hypotheses (trueish and nilx are identifiers,
   a block comment containing a star, an escaped string spanning two lines, a negative number,
   a line comment, operators written without blanks). *)
Definition sample_items : list item :=
  [ IWord (bs "trueish"); IPunct (bs ":=") SHORT_INIT_OPERATOR; IWord (bs "nilx"); IPunct (bs "+") BINARY_OPERATOR;
    IWord (bs "true"); IPunct [32] SPACE; IBlock (bs "a*b"); IPunct [32] SPACE;
    IStr false [SRaw 97; SEsc 110; SRaw 10; SEsc 34; SRaw 195; SRaw 169]; IPunct (bs "==") COMPARE_OPERATOR;
    INum true (bs "12") (Some (bs "5")); IPunct [32] SPACE; ILine (bs " c /* x"); IPunct [10] NEWLINE;
    IStr true [SRaw 92; SRaw 34]; IPunct (bs "<=") COMPARE_OPERATOR; IPunct (bs "<") COMPARE_OPERATOR; IWord (bs "for") ].

Example C11_sample_ok :
  items_ok sample_items [] = true /\ replace_crlf (render sample_items) = render sample_items.
Proof. vm_compute. split; reflexivity. Qed.

Example C11_sample_tokens :
  map (fun t => (toktype_index (ty t), row t, col t)) (expected sample_items (1, 1))
  = [ (28,1,1); (14,1,8); (28,1,10); (11,1,14); (17,1,15); (19,1,28); (12,2,6); (18,2,8); (27,2,23);
      (19,3,1); (12,3,5); (12,3,7); (38,3,8) ].
Proof. vm_compute. reflexivity. Qed.

Example C11_unknown_sample : unknown_byte 35 = true /\ unknown_byte 36 = true /\ unknown_byte 128 = true.
Proof. vm_compute. repeat split; reflexivity. Qed.
