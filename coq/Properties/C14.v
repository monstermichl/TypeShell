(* C14  Transpilation is a pure, repeatable function of source content and target.
   In the model the library is a function of the environment (file contents, their prefixes, the std
   directory), the path and the target; a transpiler object carries nothing from call to call.
   PARTIAL on the runtime side: Go's map iteration seeds and process state are observed by the check
   (fresh processes, relocated trees), not modelled. *)
From Verif Require Import Base.Bytestr Back.Pipeline.
Open Scope N_scope.

(* Any history of calls on one transpiler object yields, call by call, what a fresh object yields. *)
Theorem C14_history : forall st cs,
  run_history st cs = map (fun c => transpile (c_env c) (c_path c) (c_target c)) cs.
Proof.
  intros st cs. revert st. induction cs as [|c cs IH]; intro st; [reflexivity|].
  cbn [run_history step map]. f_equal. apply IH.
Qed.
Print Assumptions C14_history.

(* In particular the two targets never influence each other and repetition changes nothing. *)
Theorem C14_interleaving : forall st c1 c2 cs,
  nth 0 (run_history st (c1 :: c2 :: c1 :: cs)) Failed = nth 2 (run_history st (c1 :: c2 :: c1 :: cs)) Failed.
Proof. intros. rewrite C14_history. reflexivity. Qed.
Print Assumptions C14_interleaving.
