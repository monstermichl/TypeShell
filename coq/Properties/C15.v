(* C15  std/strings agrees with Go's strings package.
   For ALL arguments (no bound on lengths): the transliteration of std/strings.tsh (Lib/StrLib.v, function by
   function, loop by loop, with the substring semantics of the Bash back-end) returns what the specification of
   the Go function of the same name (Lib/GoStrings.v) returns; Some on the left also says that no loop runs out
   of fuel and no substring expression leaves Bash's defined range.  C15_repeat is stated for the counts Go's
   Repeat accepts (it panics on a negative one); lib_repeat_correct holds for every count, both sides being ""
   for a negative one.  The check ties both sides to reality on every run: lib_f against the compiled library
   executed under /bin/bash, go_f against Go's own strings functions, on the same argument tuples; and the
   source lines of std/strings.tsh must still be the ones quoted in Lib/StrLib.v. *)
From Verif Require Import Base.Bytestr Lib.GoStrings Lib.StrLib Lib.StrLibFacts.
From Coq Require Import ZArith.
Open Scope N_scope.

Theorem C15_has_prefix : forall s prefix,
  lib_has_prefix s prefix = Some (go_has_prefix s prefix).
Proof. exact lib_has_prefix_correct. Qed.
Print Assumptions C15_has_prefix.

Theorem C15_has_suffix : forall s suffix,
  lib_has_suffix s suffix = Some (go_has_suffix s suffix).
Proof. exact lib_has_suffix_correct. Qed.
Print Assumptions C15_has_suffix.

Theorem C15_cut_prefix : forall s prefix,
  lib_cut_prefix s prefix = Some (go_cut_prefix s prefix).
Proof. exact lib_cut_prefix_correct. Qed.
Print Assumptions C15_cut_prefix.

Theorem C15_cut_suffix : forall s suffix,
  lib_cut_suffix s suffix = Some (go_cut_suffix s suffix).
Proof. exact lib_cut_suffix_correct. Qed.
Print Assumptions C15_cut_suffix.

Theorem C15_trim_prefix : forall s prefix,
  lib_trim_prefix s prefix = Some (go_trim_prefix s prefix).
Proof. exact lib_trim_prefix_correct. Qed.
Print Assumptions C15_trim_prefix.

Theorem C15_trim_suffix : forall s suffix,
  lib_trim_suffix s suffix = Some (go_trim_suffix s suffix).
Proof. exact lib_trim_suffix_correct. Qed.
Print Assumptions C15_trim_suffix.

Theorem C15_repeat : forall s count,
  (0 <= count)%Z -> lib_repeat s count = Some (go_repeat s count).
Proof. intros s count _. apply lib_repeat_correct. Qed.
Print Assumptions C15_repeat.

Theorem C15_join : forall elems sep,
  lib_join elems sep = Some (go_join elems sep).
Proof. exact lib_join_correct. Qed.
Print Assumptions C15_join.

Theorem C15_index : forall s substr,
  lib_index s substr = Some (go_index s substr).
Proof. exact lib_index_correct. Qed.
Print Assumptions C15_index.

Theorem C15_contains : forall s substr,
  lib_contains s substr = Some (go_contains s substr).
Proof. exact lib_contains_correct. Qed.
Print Assumptions C15_contains.

Theorem C15_cut : forall s sep,
  lib_cut s sep = Some (go_cut s sep).
Proof. exact lib_cut_correct. Qed.
Print Assumptions C15_cut.

Theorem C15_count : forall s substr,
  lib_count s substr = Some (go_count s substr).
Proof. exact lib_count_correct. Qed.
Print Assumptions C15_count.

Theorem C15_trim_left : forall s cutset,
  lib_trim_left s cutset = Some (go_trim_left s cutset).
Proof. exact lib_trim_left_correct. Qed.
Print Assumptions C15_trim_left.

Theorem C15_trim_right : forall s cutset,
  lib_trim_right s cutset = Some (go_trim_right s cutset).
Proof. exact lib_trim_right_correct. Qed.
Print Assumptions C15_trim_right.

Theorem C15_trim : forall s cutset,
  lib_trim s cutset = Some (go_trim s cutset).
Proof. exact lib_trim_correct. Qed.
Print Assumptions C15_trim.

Theorem C15_trim_space : forall s,
  lib_trim_space s = Some (go_trim_space s).
Proof. exact lib_trim_space_correct. Qed.
Print Assumptions C15_trim_space.

Theorem C15_replace : forall s old new n,
  lib_replace s old new n = Some (go_replace s old new n).
Proof. exact lib_replace_correct. Qed.
Print Assumptions C15_replace.

Theorem C15_replace_all : forall s old new,
  lib_replace_all s old new = Some (go_replace_all s old new).
Proof. exact lib_replace_all_correct. Qed.
Print Assumptions C15_replace_all.

Theorem C15_split : forall s sep,
  lib_split s sep = Some (go_split s sep).
Proof. exact lib_split_correct. Qed.
Print Assumptions C15_split.

(* non-vacuity: concrete evaluations of both sides *)
Example C15_sample :
  lib_split (bs "a,b,,c,") (bs ",") = Some [bs "a"; bs "b"; []; bs "c"; []]
  /\ lib_replace (bs "banana") (bs "an") (bs "AN") 1 = Some (bs "bANana")
  /\ lib_trim_space (bs "  x y  ") = Some (bs "x y")
  /\ lib_index (bs "chicken") (bs "ken") = Some 4%Z.
Proof. vm_compute. repeat split; reflexivity. Qed.
