(* Lists cut at a known position or taken from their last element, and what [has_prefix] says about a cut. *)
From Verif Require Import Base.Bytestr.

Lemma skipn_add {A} (l : list A) n m : skipn (n + m) l = skipn m (skipn n l).
Proof. revert l; induction n as [|n IH]; intros [|y l]; simpl; auto. destruct m; reflexivity. Qed.

Lemma firstn_add {A} (l : list A) n m : firstn (n + m) l = firstn n l ++ firstn m (skipn n l).
Proof. revert l; induction n as [|n IH]; intros [|y l]; simpl; auto. - destruct m; reflexivity. - f_equal. apply IH. Qed.

Lemma nth_error_skipn {A} (l : list A) k i : nth_error (skipn k l) i = nth_error l (k + i).
Proof. revert l; induction k as [|k IH]; intros [|y l]; simpl; auto. destruct i; reflexivity. Qed.

Lemma nth_error_firstn {A} (l : list A) n j :
  nth_error (firstn n l) j = if Nat.ltb j n then nth_error l j else None.
Proof.
  revert n j; induction l as [|y l IH]; intros [|n] [|j]; try reflexivity; [|exact (IH n j)].
  destruct (Nat.ltb (S j) (S n)); reflexivity.
Qed.

Lemma skipn_app_length {A} (a b : list A) : skipn (length a) (a ++ b) = b.
Proof. induction a as [|x a IH]; [reflexivity|exact IH]. Qed.

Lemma firstn_app_length {A} (a b : list A) : firstn (length a) (a ++ b) = a.
Proof. induction a as [|x a IH]; [reflexivity|simpl; f_equal; exact IH]. Qed.

Lemma pos_length {A} (l : list A) : l <> [] -> (0 < length l)%nat.
Proof. destruct l; [congruence|simpl; lia]. Qed.

Lemma NoDup_snoc {A} (l : list A) x : NoDup (l ++ [x]) <-> NoDup l /\ ~ In x l.
Proof.
  split.
  - intro H. apply NoDup_remove in H. rewrite app_nil_r in H. exact H.
  - intros [D N]. apply NoDup_rev in D. rewrite <- (rev_involutive (l ++ [x])). apply NoDup_rev. rewrite rev_app_distr.
    constructor; [rewrite <- in_rev; exact N|exact D].
Qed.

Lemma rev_hd_snoc {A} (l : list A) x r : rev l = x :: r -> l = rev r ++ [x].
Proof. intro H. rewrite <- (rev_involutive l), H. reflexivity. Qed.

Lemma forallb_app_intro {A} (f : A -> bool) a b : forallb f a = true -> forallb f b = true -> forallb f (a ++ b) = true.
Proof. intros Ha Hb. rewrite forallb_app, Ha, Hb. reflexivity. Qed.

Lemma forallb_opt {A} (f : A -> bool) (c : bool) l : forallb f l = true -> forallb f (if c then l else []) = true.
Proof. intro H. destruct c; [exact H|reflexivity]. Qed.

Lemma has_prefix_true p s : has_prefix p s = true <-> exists r, s = p ++ r.
Proof.
  unfold has_prefix. split.
  - destruct (strip_prefix p s) as [r|] eqn:E; [|discriminate]. intros _.
    exists r. apply strip_prefix_some. exact E.
  - intros [r Hr]. subst s. rewrite strip_prefix_app. reflexivity.
Qed.

Lemma has_prefix_false_strip p s : has_prefix p s = false -> strip_prefix p s = None.
Proof. unfold has_prefix. destruct (strip_prefix p s); [discriminate|reflexivity]. Qed.

Lemma strip_prefix_shorter p s r : p <> [] -> strip_prefix p s = Some r -> (length r < length s)%nat.
Proof.
  intros Hp H. apply strip_prefix_some in H. subst s. rewrite app_length. pose proof (pos_length p Hp). lia.
Qed.

Lemma has_prefix_cons d p c t : has_prefix (d :: p) (c :: t) = (c =? d) && has_prefix p t.
Proof.
  unfold has_prefix. cbn [strip_prefix]. rewrite (N.eqb_sym c d).
  destruct (d =? c); reflexivity.
Qed.

(* Go's definition: len(s) >= len(p) && s[:len(p)] == p *)
Lemma has_prefix_firstn p s : has_prefix p s = beq (firstn (length p) s) p.
Proof.
  revert s. induction p as [|x p IH]; intros [|y s]; try reflexivity.
  rewrite has_prefix_cons. cbn [length firstn beq]. rewrite IH. reflexivity.
Qed.
