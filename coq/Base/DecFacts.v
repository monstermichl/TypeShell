(* Decimal printing is inverted by decimal reading: integers keep their value through the text. *)
From Verif Require Import Base.Bytestr Front.FrontModel.
From Coq Require Import ZArith.
Open Scope N_scope.

Lemma digits_val_some s : forall acc v, digits_val s acc = Some v ->
  forallb is_digit s = true /\ fold_left (fun a c => a * 10 + (c - 48)) s acc = v.
Proof.
  induction s as [|c r IH]; intros acc v H; cbn [digits_val forallb fold_left] in *.
  - split; congruence.
  - destruct (is_digit c); [|discriminate]. exact (IH _ _ H).
Qed.

Lemma digits_hd c ds : forallb is_digit ds = true -> is_digit c = false -> hd_is c ds = false.
Proof.
  destruct ds as [|d r]; [reflexivity|]. cbn [forallb hd_is]. intros H Hc.
  apply andb_true_iff in H as [Hd _]. destruct (N.eqb_spec d c); [congruence|reflexivity].
Qed.

Lemma digit_char n : n < 10 -> is_digit (48 + n) = true /\ 48 + n - 48 = n.
Proof. intro H. unfold is_digit. split; [apply andb_true_iff; split; apply N.leb_le|]; lia. Qed.

(* dec_N gives dec_fuel one unit of fuel per binary digit; a decimal digit uses up at least one *)
Lemma dec_N_fuel n : n < 2 ^ N.of_nat (S (N.to_nat (N.log2 n))).
Proof. rewrite Nat2N.inj_succ, N2Nat.id. destruct n as [|p]; [reflexivity|]. apply N.log2_spec. reflexivity. Qed.

Lemma dec_fuel_step f n : n < 2 ^ N.of_nat (S f) -> n / 10 < 2 ^ N.of_nat f.
Proof.
  rewrite Nat2N.inj_succ, N.pow_succ_r'. intro H. apply N.le_lt_trans with (n / 2).
  - apply N.div_le_compat_l. lia.
  - apply N.div_lt_upper_bound; [discriminate|exact H].
Qed.

Lemma dec_fuel_val fuel : forall n acc, n < 2 ^ N.of_nat fuel ->
  exists k, forall a, digits_val (dec_fuel fuel n acc) a = digits_val acc (a * 10 ^ k + n).
Proof.
  induction fuel as [|f IH]; intros n acc Hn.
  - apply N.lt_1_r in Hn. subst n. exists 0. intro a. cbn. f_equal. lia.
  - cbn [dec_fuel]. destruct (N.ltb_spec n 10) as [E|E].
    + exists 1. intro a. cbn [digits_val]. rewrite N.mod_small by exact E.
      destruct (digit_char n E) as [Hd Hv]. rewrite Hd, Hv, N.pow_1_r. reflexivity.
    + destruct (IH (n / 10) (48 + n mod 10 :: acc) (dec_fuel_step f n Hn)) as (k & Hk).
      exists (k + 1). intro a. rewrite Hk. cbn [digits_val].
      destruct (digit_char (n mod 10)) as [Hd Hv]; [apply N.mod_lt; discriminate|]. rewrite Hd, Hv. f_equal.
      rewrite N.pow_add_r, N.pow_1_r, N.mul_add_distr_r, <- N.add_assoc, N.mul_assoc, (N.mul_comm (n / 10)).
      rewrite <- N.div_mod by discriminate. reflexivity.
Qed.

Theorem digits_dec_N n : digits_val (dec_N n) 0 = Some n.
Proof. destruct (dec_fuel_val _ n [] (dec_N_fuel n)) as (k & Hk). unfold dec_N. rewrite Hk. reflexivity. Qed.

Lemma dec_N_digits n : forallb is_digit (dec_N n) = true.
Proof. exact (proj1 (digits_val_some _ _ _ (digits_dec_N n))). Qed.

Lemma dec_N_nonempty n : dec_N n <> [].
Proof.
  intro H. pose proof (digits_dec_N n) as D. rewrite H in D. injection D as <-. discriminate H.
Qed.

Theorem dec_N_inj a b : dec_N a = dec_N b -> a = b.
Proof. intro H. pose proof (digits_dec_N a) as A. rewrite H, digits_dec_N in A. congruence. Qed.

Lemma dec_fuel_head fuel : forall n acc,
  0 < n -> n < 2 ^ N.of_nat fuel -> hd_is 48 (dec_fuel fuel n acc) = false.
Proof.
  induction fuel as [|f IH]; intros n acc Hpos Hn.
  - apply N.lt_1_r in Hn. subst n. discriminate Hpos.
  - cbn [dec_fuel]. destruct (N.ltb_spec n 10) as [E|E].
    + cbn [hd_is]. rewrite N.mod_small by exact E. apply N.eqb_neq. lia.
    + apply IH; [apply N.div_str_pos; lia|apply dec_fuel_step, Hn].
Qed.

Lemma dec_N_no_leading_zero p : hd_is 48 (dec_N (Npos p)) = false.
Proof. apply dec_fuel_head; [reflexivity|apply dec_N_fuel]. Qed.

Lemma atoi_digits (neg : bool) ds n :
  digits_val ds 0 = Some n -> ds <> [] ->
  let z := (if neg then - Z.of_N n else Z.of_N n)%Z in
  (-9223372036854775808 <= z <= 9223372036854775807)%Z ->
  atoi (if neg then 45 :: ds else ds) = Some z.
Proof.
  intros Hv Hne z [Hlo Hhi].
  assert (hd_is 45 ds = false) as H45 by (apply digits_hd; [apply (digits_val_some _ _ _ Hv)|reflexivity]).
  apply Z.leb_le in Hlo, Hhi. unfold atoi.
  destruct neg; cbn [tl]; [change (hd_is 45 (45 :: ds)) with true|rewrite H45]; cbv iota zeta;
    (destruct ds; [congruence|]); rewrite Hv; fold z; rewrite Hlo, Hhi; reflexivity.
Qed.

(* the parser's reading of an integer literal inverts the converters' IntToString, on all of int64 *)
Theorem atoi_dec_Z z : (-9223372036854775808 <= z <= 9223372036854775807)%Z -> atoi (dec_Z z) = Some z.
Proof.
  destruct z as [|p|p]; intro Hz.
  - reflexivity.
  - exact (atoi_digits false _ _ (digits_dec_N (Npos p)) (dec_N_nonempty _) Hz).
  - exact (atoi_digits true _ _ (digits_dec_N (Npos p)) (dec_N_nonempty _) Hz).
Qed.

(* a reader that inverts dec_Z on every integer (atoi does so on int64 only) *)
Definition read_Z (s : bytes) : option Z :=
  if hd_is 45 s then option_map (fun n => - Z.of_N n)%Z (digits_val (tl s) 0) else option_map Z.of_N (digits_val s 0).

Lemma read_dec_Z z : read_Z (dec_Z z) = Some z.
Proof.
  destruct z as [|p|p]; [reflexivity| |]; unfold read_Z; cbn [dec_Z].
  - rewrite (digits_hd 45 _ (dec_N_digits _) eq_refl), digits_dec_N. reflexivity.
  - change (hd_is 45 (45 :: ?r)) with true. cbn [tl]. rewrite digits_dec_N. reflexivity.
Qed.

Theorem dec_Z_inj a b : dec_Z a = dec_Z b -> a = b.
Proof. intro H. pose proof (read_dec_Z a) as A. rewrite H, read_dec_Z in A. congruence. Qed.
