(* The hypotheses of the simulation theorems (C01, C02) are satisfiable: source derivations, contexts and name conditions
   for concrete programs with loops, conditionals, break, continue and function calls.  The derivations are answers of the
   interpreter of Sem/JRun.v (sound for J), the name conditions are the decidable checks of Sem/ProgramPreserve.v. *)
From Verif Require Import Base.Bytestr Front.Ast Back.BashLines Back.Transpile Back.BashConv
  Sem.Src Sem.ExprPreserve Sem.StmtPreserve Sem.IfPreserve Sem.FlatLoop Sem.LoopPreserve
  Sem.CallPreserve Sem.JRun Sem.ProgramPreserve.
From Coq Require Import ZArith.
Open Scope N_scope.

Definition no_calls : list var -> bytes -> list value -> senv -> list value -> senv -> bytes -> Prop := fun _ _ _ _ _ _ _ => False.
Definition sg_empty : senv := fun _ => None.

Lemma env_ok_empty : env_ok sg_empty.
Proof. intros y w H. discriminate H. Qed.

(* top-level code before any assignment *)
Lemma top_ctx_empty s G mlo : b_funcs s = 0%nat -> names_plain G = true -> inj_top G = true ->
  ctx_ok G sg_empty [] s /\ fresh_flags (b_for_counter s) mlo G s.
Proof.
  intros Hf Hp Hi. destruct (top_ctx s G mlo Hf Hp Hi) as (Fine & Hy & Inj & Fresh).
  split; [constructor; [exact Fine| |exact Hy|exact Inj]; intros x v _ Hv; discriminate Hv|exact Fresh].
Qed.

(* top_code_preserved from the empty environments: the lines of the code alone, run to their end *)
Lemma sample_applies fuel defs script d mlo G body sg' out s s' :
  (forall F, In F defs -> fun_ok script F) -> b_funcs s = 0%nat -> names_plain G = true -> inj_top G = true ->
  jrun fuel G (jcall_at defs fuel d (b_for_counter s) mlo G) (Prog body) sg_empty = Some (sg', out, SN) ->
  go_fix body s = TOk tt s' ->
  exists X b', b_code s' = b_code s ++ X /\ lruns (call_of script d) [] [] [] X (b', out).
Proof.
  intros Hok Hf Hp Hi Ej Hg.
  destruct (top_code_preserved fuel defs script d mlo G body sg_empty sg' out s s' [] Hok Hf Hp Hi
              ltac:(intros x v _ Hv; discriminate Hv) env_ok_empty Ej Hg) as (X & b' & Ex & _ & _ & Hk).
  exists X, b'. split; [exact (cx_code _ _ _ Ex)|exact (run_to_end _ _ _ _ _ _ Hk)].
Qed.

(* s := 0; for i := 0; i < 10; i++ { if i == 2 { continue }; if i > 4 { break }; s = s + i; print(i, s) }; print("end", s) *)
Definition vi : var := mkVar (bs "i") (T DInt) true false.
Definition vs0 : var := mkVar (bs "s") (T DInt) true false.
Definition XS3 : list var := [vs0; vi].
Definition prog3 : list stmt :=
  [SVarDef [vs0] [EInt 0];
   SFor (Some (SVarDef [vi] [EInt 0])) (ECompare (EVar vi) CLt (EInt 10)) (Some (SAssign [vi] [EBinary (EVar vi) OpAdd (EInt 1)]))
     [SIf [(ECompare (EVar vi) CEq (EInt 2), [SContinue])] [];
      SIf [(ECompare (EVar vi) CGt (EInt 4), [SBreak])] [];
      SAssign [vs0] [EBinary (EVar vs0) OpAdd (EVar vi)];
      SPrint [EVar vi; EVar vs0]];
   SPrint [EStr (bs "end"); EVar vs0]].

Lemma ctx3 : ctx_ok XS3 sg_empty [] b_init.
Proof. exact (proj1 (top_ctx_empty b_init XS3 0 eq_refl eq_refl eq_refl)). Qed.

Lemma fresh3 : fresh_flags 0 0 XS3 b_init.
Proof. exact (proj2 (top_ctx_empty b_init XS3 0 eq_refl eq_refl eq_refl)). Qed.

Lemma loop_sample_derivation :
  exists sgF out, J no_calls XS3 (Prog prog3) sg_empty sgF out SN /\
                  out = bs "0 0" ++ [10] ++ bs "1 1" ++ [10] ++ bs "3 4" ++ [10] ++ bs "4 8" ++ [10] ++ bs "end 8" ++ [10].
Proof.
  eexists. eexists. split; [|reflexivity].
  apply (jrun_program_sound [] 200 0 0 0 XS3 (Prog prog3)); [vm_compute; reflexivity|exact env_ok_empty].
Qed.

Lemma loop_sample_applies :
  match go_fix prog3 b_init with
  | TOk _ s' => exists b', lruns (fun _ _ _ _ => None) [] [] [] (b_code s')
                  (b', bs "0 0" ++ [10] ++ bs "1 1" ++ [10] ++ bs "3 4" ++ [10] ++ bs "4 8" ++ [10] ++ bs "end 8" ++ [10])
  | _ => False
  end.
Proof.
  destruct (go_fix prog3 b_init) as [[] s'| |] eqn:E; [|vm_compute in E; discriminate E|vm_compute in E; discriminate E].
  edestruct (sample_applies 200 [] [] 0 0 XS3 prog3) with (s := b_init) (s' := s') as (X & b' & Hx & Hrun);
    [intros F []|reflexivity|reflexivity|reflexivity|vm_compute; reflexivity|exact E|].
  exists b'. rewrite Hx. exact Hrun.
Qed.

(* func add(a int, b int) int { c := a + b; print("in", c); return c }   g := 1; y := add(g, 41); print(y, g); add(y, y) *)
Definition pa : var := mkVar (bs "a") (T DInt) false false.
Definition pb : var := mkVar (bs "b") (T DInt) false false.
Definition lc : var := mkVar (bs "c") (T DInt) false false.
Definition gg : var := mkVar (bs "g") (T DInt) true false.
Definition gy : var := mkVar (bs "y") (T DInt) true false.
Definition add_body : list stmt := [SVarDef [lc] [EBinary (EVar pa) OpAdd (EVar pb)]; SPrint [EStr (bs "in"); EVar lc]; SReturn [EVar lc]].
Definition add_def : stmt := SFunc (bs "add") [T DInt] [pa; pb] add_body false.
Definition main_add : list stmt :=
  [SVarDef [gg] [EInt 1];
   SVarDefCall [gy] (ECall (bs "add") [T DInt] [EVar gg; EInt 41]);
   SPrint [EVar gy; EVar gg];
   SExpr (ECall (bs "add") [T DInt] [EVar gy; EVar gy])].
Definition st_of (r : tres bstate unit) : bstate := match r with TOk _ s => s | _ => b_init end.
Definition s_add_f : bstate := cv_func_start bstate atom bash_conv (bs "add") [bs "a"; bs "b"] [T DInt] b_init.
Definition s_add_r : bstate := st_of (go_fix add_body s_add_f).
Definition s_main : bstate := st_of (t_stmt bash_conv add_def b_init).
Definition s_end : bstate := st_of (go_fix main_add s_main).
Definition script_add : list line := b_code s_end.
Definition XSf_add : list var := [gg; gy; pa; pb; lc].
Definition XS_main : list var := [gg; gy].
Definition F_add : fdef := mkFdef (bs "add") [pa; pb] add_body XSf_add s_add_f s_add_r.

Lemma add_fun_ok : fun_ok script_add F_add.
Proof. eapply fun_ok_intro; [vm_compute; apply le_n|reflexivity|reflexivity|apply params_okb_ok; reflexivity|..]; vm_compute; reflexivity. Qed.

(* scall_at [F_add] 1 0 2: calls nest one deep; 0 is the first loop-flag number that is free for the calling code (the
   functions it calls have their loops numbered below it: add has none); 2 bounds the numbers of the functions it may call
   from above (add is number 1).  With 200 units of fuel the interpreter answers; it gives None when it runs out. *)
Lemma call_sample_derivation :
  exists sgF out, J (scall_at [F_add] 1 0 2) XS_main (Prog main_add) sg_empty sgF out SN /\
                  out = bs "in 42" ++ [10] ++ bs "42 1" ++ [10] ++ bs "in 84" ++ [10].
Proof.
  eexists. eexists. split; [|reflexivity].
  apply (jrun_program_sound [F_add] 200 1 0 2 XS_main (Prog main_add)); [vm_compute; reflexivity|exact env_ok_empty].
Qed.

(* the theorem applied: the script's lines, with its own function as the call oracle, print this *)
Lemma call_sample_applies :
  exists X b', b_code s_end = b_code s_main ++ X /\ lruns (call_of script_add 1) [] [] [] X (b', bs "in 42" ++ [10] ++ bs "42 1" ++ [10] ++ bs "in 84" ++ [10]).
Proof.
  eapply (sample_applies 200 [F_add] script_add 1 2 XS_main main_add);
    [|vm_compute; reflexivity..].
  intros F [<-|[]]. exact add_fun_ok.
Qed.

(* simultaneous assignment and a function with two results:
   func divmod(a int, b int) (int, int) { return a / b, a % b }
   x := 17; y := 5; x, y = y, x; q, r := divmod(x, y); print(x, y, q, r) *)
Definition gx : var := mkVar (bs "x") (T DInt) true false.
Definition gy2 : var := mkVar (bs "y") (T DInt) true false.
Definition gq : var := mkVar (bs "q") (T DInt) true false.
Definition gr : var := mkVar (bs "r") (T DInt) true false.
Definition dm_body : list stmt := [SReturn [EBinary (EVar pa) OpDiv (EVar pb); EBinary (EVar pa) OpMod (EVar pb)]].
Definition dm_def : stmt := SFunc (bs "divmod") [T DInt; T DInt] [pa; pb] dm_body false.
Definition main_dm : list stmt :=
  [SVarDef [gx] [EInt 17]; SVarDef [gy2] [EInt 5];
   SAssign [gx; gy2] [EVar gy2; EVar gx];
   SVarDefCall [gq; gr] (ECall (bs "divmod") [T DInt; T DInt] [EVar gx; EVar gy2]);
   SPrint [EVar gx; EVar gy2; EVar gq; EVar gr]].
Definition s_dm_f : bstate := cv_func_start bstate atom bash_conv (bs "divmod") [bs "a"; bs "b"] [T DInt; T DInt] b_init.
Definition s_dm_r : bstate := st_of (go_fix dm_body s_dm_f).
Definition s_dm_main : bstate := st_of (t_stmt bash_conv dm_def b_init).
Definition s_dm_end : bstate := st_of (go_fix main_dm s_dm_main).
Definition script_dm : list line := b_code s_dm_end.
Definition XSf_dm : list var := [gx; gy2; gq; gr; pa; pb].
Definition XS_dm : list var := [gx; gy2; gq; gr].
Definition F_dm : fdef := mkFdef (bs "divmod") [pa; pb] dm_body XSf_dm s_dm_f s_dm_r.

Lemma dm_fun_ok : fun_ok script_dm F_dm.
Proof. eapply fun_ok_intro; [vm_compute; apply le_n|reflexivity|reflexivity|apply params_okb_ok; reflexivity|..]; vm_compute; reflexivity. Qed.

Lemma swap_sample_derivation :
  exists sgF out, J (scall_at [F_dm] 1 0 2) XS_dm (Prog main_dm) sg_empty sgF out SN /\ out = bs "5 17 0 5" ++ [10].
Proof.
  eexists. eexists. split; [|reflexivity].
  apply (jrun_program_sound [F_dm] 200 1 0 2 XS_dm (Prog main_dm)); [vm_compute; reflexivity|exact env_ok_empty].
Qed.

Lemma swap_sample_applies :
  exists X b', b_code s_dm_end = b_code s_dm_main ++ X /\ lruns (call_of script_dm 1) [] [] [] X (b', bs "5 17 0 5" ++ [10]).
Proof.
  eapply (sample_applies 200 [F_dm] script_dm 1 2 XS_dm main_dm);
    [|vm_compute; reflexivity..].
  intros F [<-|[]]. exact dm_fun_ok.
Qed.

(* return inside a branch, and a function without results:
   func abs(a int) int { if a < 0 { return 0 - a }; return a }   func show(a int) { print("v", a) }
   x := abs(0 - 5); y := abs(3); show(x + y) *)
Definition abs_body : list stmt :=
  [SIf [(ECompare (EVar pa) CLt (EInt 0), [SReturn [EBinary (EInt 0) OpSub (EVar pa)]])] []; SReturn [EVar pa]].
Definition show_body : list stmt := [SPrint [EStr (bs "v"); EVar pa]].
Definition abs_def : stmt := SFunc (bs "abs") [T DInt] [pa] abs_body false.
Definition show_def : stmt := SFunc (bs "show") [] [pa] show_body false.
Definition main_abs : list stmt :=
  [SVarDefCall [gx] (ECall (bs "abs") [T DInt] [EBinary (EInt 0) OpSub (EInt 5)]);
   SVarDefCall [gy2] (ECall (bs "abs") [T DInt] [EInt 3]);
   SExpr (ECall (bs "show") [] [EBinary (EVar gx) OpAdd (EVar gy2)])].
Definition s_abs_f : bstate := cv_func_start bstate atom bash_conv (bs "abs") [bs "a"] [T DInt] b_init.
Definition s_abs_r : bstate := st_of (go_fix abs_body s_abs_f).
Definition s_abs_done : bstate := st_of (t_stmt bash_conv abs_def b_init).
Definition s_show_f : bstate := cv_func_start bstate atom bash_conv (bs "show") [bs "a"] [] s_abs_done.
Definition s_show_r : bstate := st_of (go_fix show_body s_show_f).
Definition s_abs_main : bstate := st_of (t_stmt bash_conv show_def s_abs_done).
Definition s_abs_end : bstate := st_of (go_fix main_abs s_abs_main).
Definition script_abs : list line := b_code s_abs_end.
Definition XS_abs : list var := [gx; gy2].
Definition XSf_abs : list var := [gx; gy2; pa].
Definition F_abs : fdef := mkFdef (bs "abs") [pa] abs_body XSf_abs s_abs_f s_abs_r.
Definition F_show : fdef := mkFdef (bs "show") [pa] show_body XSf_abs s_show_f s_show_r.

Lemma abs_fun_ok : fun_ok script_abs F_abs.
Proof. eapply fun_ok_intro; [vm_compute; apply le_n|reflexivity|reflexivity|apply params_okb_ok; reflexivity|..]; vm_compute; reflexivity. Qed.
Lemma show_fun_ok : fun_ok script_abs F_show.
Proof. eapply fun_ok_intro; [vm_compute; apply le_n|reflexivity|reflexivity|apply params_okb_ok; reflexivity|..]; vm_compute; reflexivity. Qed.

Lemma abs_sample_derivation :
  exists sgF out, J (scall_at [F_abs; F_show] 1 0 3) XS_abs (Prog main_abs) sg_empty sgF out SN /\ out = bs "v 8" ++ [10].
Proof.
  eexists. eexists. split; [|reflexivity].
  apply (jrun_program_sound [F_abs; F_show] 200 1 0 3 XS_abs (Prog main_abs)); [vm_compute; reflexivity|exact env_ok_empty].
Qed.

Lemma abs_sample_applies :
  exists X b', b_code s_abs_end = b_code s_abs_main ++ X /\ lruns (call_of script_abs 1) [] [] [] X (b', bs "v 8" ++ [10]).
Proof.
  eapply (sample_applies 200 [F_abs; F_show] script_abs 1 3 XS_abs main_abs);
    [|vm_compute; reflexivity..].
  intros F [<-|[<-|[]]]; [exact abs_fun_ok|exact show_fun_ok].
Qed.

(* len of a string (evaluated in Properties/C01.v):   s := "hello" + "!"; n := len(s); print(n, len(s + s)) *)
Definition gs : var := mkVar (bs "s") (T DString) true false.
Definition gn : var := mkVar (bs "n") (T DInt) true false.
Definition prog_len : list stmt :=
  [SVarDef [gs] [EBinary (EStr (bs "hello")) OpAdd (EStr (bs "!"))];
   SVarDef [gn] [ELen (EVar gs)];
   SPrint [EVar gn; ELen (EBinary (EVar gs) OpAdd (EVar gs))]].

(* return inside a loop:
   func find(n int) int { for i := 0; i < 10; i++ { if i * i >= n { return i } }; return 0 - 1 }   r := find(10); print(r) *)
Definition li : var := mkVar (bs "i") (T DInt) false false.
Definition pn : var := mkVar (bs "n") (T DInt) false false.
Definition find_body : list stmt :=
  [SFor (Some (SVarDef [li] [EInt 0])) (ECompare (EVar li) CLt (EInt 10)) (Some (SAssign [li] [EBinary (EVar li) OpAdd (EInt 1)]))
     [SIf [(ECompare (EBinary (EVar li) OpMul (EVar li)) CGe (EVar pn), [SReturn [EVar li]])] []];
   SReturn [EBinary (EInt 0) OpSub (EInt 1)]].
Definition find_def : stmt := SFunc (bs "find") [T DInt] [pn] find_body false.
Definition main_find : list stmt := [SVarDefCall [gr] (ECall (bs "find") [T DInt] [EInt 10]); SPrint [EVar gr]].
Definition s_find_f : bstate := cv_func_start bstate atom bash_conv (bs "find") [bs "n"] [T DInt] b_init.
Definition s_find_r : bstate := st_of (go_fix find_body s_find_f).
Definition s_find_main : bstate := st_of (t_stmt bash_conv find_def b_init).
Definition s_find_end : bstate := st_of (go_fix main_find s_find_main).
Definition script_find : list line := b_code s_find_end.
Definition XS_find : list var := [gr].
Definition XSf_find : list var := [gr; pn; li].
Definition F_find : fdef := mkFdef (bs "find") [pn] find_body XSf_find s_find_f s_find_r.

Lemma find_fun_ok : fun_ok script_find F_find.
Proof. eapply fun_ok_intro; [vm_compute; apply le_n|reflexivity|reflexivity|apply params_okb_ok; reflexivity|..]; vm_compute; reflexivity. Qed.

Lemma find_body_derivation :
  exists sgl out g, J (scall_at [F_find] 0 0 1) XSf_find (Prog find_body) (bind [pn] [VInt 10] (globals_of sg_empty)) sgl out g.
Proof.
  eexists. eexists. eexists. apply (jrun_program_sound [F_find] 200 0 0 1 XSf_find (Prog find_body)); [vm_compute; reflexivity|].
  exact (typedb_ok _ pn (VInt 10) (env_ok_globals _ env_ok_empty) eq_refl).
Qed.

Lemma find_sample_derivation :
  exists sgF out, J (scall_at [F_find] 1 1 2) XS_find (Prog main_find) sg_empty sgF out SN /\ out = bs "4" ++ [10].
Proof.
  eexists. eexists. split; [|reflexivity].
  apply (jrun_program_sound [F_find] 200 1 1 2 XS_find (Prog main_find)); [vm_compute; reflexivity|exact env_ok_empty].
Qed.

Lemma find_sample_applies :
  exists X b', b_code s_find_end = b_code s_find_main ++ X /\ lruns (call_of script_find 1) [] [] [] X (b', bs "4" ++ [10]).
Proof.
  eapply (sample_applies 200 [F_find] script_find 1 2 XS_find main_find);
    [|vm_compute; reflexivity..].
  intros F [<-|[]]. exact find_fun_ok.
Qed.
